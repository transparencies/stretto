(* CacheProofs.v — C01 lifted to the cache: `cstep_slfu`, hence the policy invariant `WF` of
   PolicyProofs.v holds in every reachable state, i.e. under every schedule of client threads,
   processor and policy worker.  Also the bound on the estimates the cache hands to the policy. *)
From StrettoModel Require Import SketchProofs PolicyProofs Cache CacheSteps CacheInv.
Open Scope N_scope.

Inductive slfu_rel (s s' : slfu) : Prop :=
| SRSame : s' = s -> slfu_rel s s'
| SRAdd est oracle k cost v a l m : pol_add est oracle s k cost = AddDone s' v a l m -> slfu_rel s s'
| SRUpdate k cost : s' = fst (fst (sl_update s k cost)) -> slfu_rel s s'
| SRRemove k : s' = fst (pol_remove s k) -> slfu_rel s s'
| SRClear : s' = sl_clear s -> slfu_rel s s'
| SRSetMax mc : s' = sl_set_max s mc -> slfu_rel s s'.

(* C01: every step of the cache, whichever actor takes it, changes the policy's charges by at most
   one policy operation *)
Theorem cstep_slfu c st l st' o :
  cstep c st l = StepOk st' o -> slfu_rel (s_slfu st) (s_slfu st').
Proof.
  intros H. step_cases H; try (apply SRSame; reflexivity).
  - (* OpUpdateMaxCost *) eapply SRSetMax. reflexivity.
  - (* PrNew *) eapply SRAdd. eassumption.
  - (* PrUpdate *) eapply SRUpdate. reflexivity.
  - (* PrDelete *) eapply SRRemove. reflexivity.
  - (* PrClearPolicy *) apply SRClear. reflexivity.
  - (* PrTickExpired *) eapply SRRemove. reflexivity.
Qed.

Definition op_costs_nonneg (c : cfg) (l : label) : Prop :=
  match l with
  | LOp _ (OInsert _ _ v cost _ _) => (0 <= cost)%Z /\ (0 <= c_coster c v)%Z
  | _ => True
  end.

Lemma slfu_rel_WF s s' : slfu_rel s s' -> WF s -> WF s'.
Proof.
  intros R W. destruct R as [->| est oracle k cost v a l m PA | k cost -> | k -> | -> | mc ->].
  - assumption.
  - eapply pol_add_WF_only; eassumption.
  - apply WF_update. assumption.
  - apply WF_pol_remove. assumption.
  - apply WF_clear.
  - apply WF_set_max. assumption.
Qed.

Lemma reach_WF c mc t now st : reach c (cinit c mc t now) st -> WF (s_slfu st).
Proof.
  apply (reach_ind_inv c (cinit c mc t now) (fun s => WF (s_slfu s))); [apply WF_new|].
  intros st0 l st1 o W S. eapply slfu_rel_WF; [eapply cstep_slfu; exact S|exact W].
Qed.

Theorem reachable_WF c mc t now ls st os :
  crun c (cinit c mc t now) ls = Some (st, os) -> WF (s_slfu st).
Proof. intros H. eapply reach_WF, crun_reach, H. Qed.

(* the estimates handed to the policy stay below the i64::MAX its minimum search starts from *)
Lemma est_of_small t k : (est_of t k < I64MAX)%Z.
Proof.
  unfold est_of, tl_estimate. destruct (sk_est (tl_sk t) k) as [e|] eqn:E; [|cbn; unfold I64MAX; lia].
  apply sk_est_le_255 in E.
  destruct (bl_contains (tl_bl t) k) as [[|]|]; unfold I64MAX; lia.
Qed.
