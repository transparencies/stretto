(* CacheCloseLive.v — property C12: close() is never stranded in its stop handshakes: there is one
   closer, and (sync flavour) its partner in a rendezvous has not left its loop.  That the partner
   can then take the stop is in CacheNoDeadlock.v. *)
From StrettoModel Require Import Cache CacheSteps CacheInv CacheClose.
Open Scope N_scope.

Definition in_close (k : ccont) : bool :=
  match k with
  | KCloseAfterFlag | KClearBlock _ true | KCloseBeforeStop | KCloseStopOffered | KCloseStopTaken | KCloseBeforePolicy
  | KPolCloseBeforeStop | KPolCloseStopOffered | KPolCloseStopTaken | KPolCloseAfterStop => true
  | _ => false
  end.

Definition OneCloser (st : cstate) : Prop :=
  (forall a, in_close (client_of st a) = true -> s_closed st = true) /\
  (forall a b, in_close (client_of st a) = true -> in_close (client_of st b) = true -> a = b).

Lemma enter_close c st l st' o b :
  cstep c st l = StepOk st' o -> in_close (client_of st' b) = true ->
  in_close (client_of st b) = true \/ (s_closed st = false /\ l = LOp b OClose /\ s_closed st' = true).
Proof.
  intros H. step_cases H; clients; auto;
    (destruct (N.eqb_spec b a) as [->|_]; [|auto]); known; cbn [in_close]; first [discriminate|auto].
Qed.

Theorem OneCloser_step c st l st' o : OneCloser st -> cstep c st l = StepOk st' o -> OneCloser st'.
Proof.
  intros (I1 & I2) H. destruct (closed_is_final c st l st' o H) as (CF & _). split.
  - intros a X. destruct (enter_close c st l st' o a H X) as [Y|(_ & _ & Y)]; [apply CF; apply (I1 a Y)|exact Y].
  - intros a b Xa Xb.
    destruct (enter_close c st l st' o a H Xa) as [Ya|(Ca & La & _)];
    destruct (enter_close c st l st' o b H Xb) as [Yb|(Cb & Lb & _)].
    + apply I2; assumption.
    + rewrite (I1 a Ya) in Cb. discriminate Cb.
    + rewrite (I1 b Yb) in Ca. discriminate Ca.
    + rewrite La in Lb. inversion Lb. reflexivity.
Qed.

Lemma OneCloser_init c mc t now : OneCloser (cinit c mc t now).
Proof. split; [intros a X; discriminate X|intros a b X; discriminate X]. Qed.

Definition OfferLive (st : cstate) : Prop :=
  (forall a, client_of st a = KCloseStopOffered -> s_pc st <> PExited) /\
  (forall a, client_of st a = KPolCloseStopOffered -> s_wpc st = WIdle).

Lemma exits_only_by_stop c st l st' o :
  cstep c st l = StepOk st' o ->
  (s_pc st <> PExited -> s_pc st' = PExited ->
   0 < s_stop_msgs st \/ exists n, client_of st n = KCloseStopOffered /\ client_of st' n = KCloseStopTaken) /\
  (s_wpc st <> WExited -> s_wpc st' = WExited ->
   0 < s_pol_stop_msgs st \/ exists n, client_of st n = KPolCloseStopOffered /\ client_of st' n = KPolCloseStopTaken).
Proof.
  intros H. step_cases H; clients; split; intros NE; try congruence; intros _.
  (* StBuffered, StOffered, WkStopBuffered, WkStopOffered *)
  1,3: left; assumption.
  all: right; eexists; split; [eassumption|]; clients; rewrite N.eqb_refl; reflexivity.
Qed.

Lemma offer_new c st l st' o a :
  cstep c st l = StepOk st' o ->
  (client_of st' a = KCloseStopOffered ->
   client_of st a = KCloseStopOffered \/
   (client_of st a = KCloseBeforeStop /\ stop_cap c <= s_stop_msgs st /\ s_pc st' <> PExited)) /\
  (client_of st' a = KPolCloseStopOffered ->
   client_of st a = KPolCloseStopOffered \/
   (client_of st a = KPolCloseBeforeStop /\ stop_cap c <= s_pol_stop_msgs st /\ s_wpc st' = WIdle)).
Proof.
  (* only the client that steps (a0 in the goals) changes its continuation, and only ClStopOffered and
     ClPolStopOffered put one at an offer: their premises are the right-hand sides *)
  intros H. step_cases H; clients; split; auto;
    (destruct (N.eqb_spec a a0) as [->|_]; [|auto]); try discriminate; auto.
Qed.

(* a new offer is made to a partner in its loop (offer_new).  The partner of a standing offer leaves
   its loop only by taking a stop (exits_only_by_stop): a buffered message, and there is none, or an
   offer — the one standing, there being one closer — which then stands no longer *)
Theorem OfferLive_step c st l st' o :
  NoMsgs st -> OneCloser st -> OfferLive st -> cstep c st l = StepOk st' o -> OfferLive st'.
Proof.
  intros (M1 & M2) (_ & U) (O1 & O2) H. split; intros a X.
  - intros E. destruct (proj1 (offer_new c st l st' o a H) X) as [Y|(_ & _ & NE)]; [|exact (NE E)].
    destruct (proj1 (exits_only_by_stop c st l st' o H) (O1 a Y) E) as [Z|(n & Hn & Hn')].
    + rewrite M1 in Z. destruct (N.lt_irrefl _ Z).
    + assert (a = n) by (apply U; [rewrite Y; reflexivity|rewrite Hn; reflexivity]). subst. congruence.
  - destruct (proj2 (offer_new c st l st' o a H) X) as [Y|(_ & _ & W)]; [|exact W].
    destruct (s_wpc st') eqn:E; [reflexivity|exfalso].
    assert (NW : s_wpc st <> WExited) by (rewrite (O2 a Y); discriminate).
    destruct (proj2 (exits_only_by_stop c st l st' o H) NW E) as [Z|(n & Hn & Hn')].
    + rewrite M2 in Z. destruct (N.lt_irrefl _ Z).
    + assert (a = n) by (apply U; [rewrite Y; reflexivity|rewrite Hn; reflexivity]). subst. congruence.
Qed.

(* C12, sync flavour: a closer offering the stop in a rendezvous has a live partner (the processor,
   resp. the policy worker, has not left its loop) *)
Theorem sync_close_offer_has_a_live_partner c mc t now st a :
  c_async c = false -> reach c (cinit c mc t now) st ->
  (client_of st a = KCloseStopOffered -> s_pc st <> PExited) /\
  (client_of st a = KPolCloseStopOffered -> s_wpc st = WIdle).
Proof.
  intros SY R.
  assert (I : NoMsgs st /\ OneCloser st /\ OfferLive st).
  { apply (reach_ind_inv c (cinit c mc t now) (fun s => NoMsgs s /\ OneCloser s /\ OfferLive s)); [| |exact R].
    - split; [split; reflexivity|]. split; [apply OneCloser_init|]. split; intros b X; discriminate X.
    - intros s0 l s1 o (N0 & C0 & L0) S. split; [eapply NoMsgs_step; eassumption|].
      split; [eapply OneCloser_step; eassumption|eapply OfferLive_step; eassumption]. }
  destruct I as (_ & _ & (O1 & O2)). split; [apply O1|apply O2].
Qed.

(* C12, either flavour: at most one client is ever inside close() *)
Theorem at_most_one_closer c mc t now st a b :
  reach c (cinit c mc t now) st -> in_close (client_of st a) = true -> in_close (client_of st b) = true -> a = b.
Proof.
  intros R. assert (I : OneCloser st).
  { apply (reach_ind_inv c (cinit c mc t now) OneCloser); [apply OneCloser_init|exact (OneCloser_step c)|exact R]. }
  apply I.
Qed.
