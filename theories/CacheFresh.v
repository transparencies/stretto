(* CacheFresh.v — property C11, "the cache then behaves like a fresh one", for the popularity
   estimator: no step changes its geometry and parameters ([tl_shape]), clear() makes of it the
   all-zero estimator of that shape, and that is what the builder made.  That store, expiry index
   and counters are empty once clear() is acknowledged is in CacheInv.v; of the other fields (ring,
   queue, admission times, histogram, ids, clock) nothing is claimed. *)
From StrettoModel Require Import BaseProofs SketchProofs BloomProofs Cache CacheSteps CacheInv CacheMetrics.
Open Scope N_scope.

Record shape := { sh_rows : list nat; sh_seeds : list N; sh_mask : N; sh_words : nat;
                  sh_size : N; sh_exp : N; sh_locs : N; sh_shift : N; sh_samples : N }.

Definition tl_shape (t : tinylfu) : shape :=
  {| sh_rows := map (@length N) (sk_rows (tl_sk t)); sh_seeds := sk_seeds (tl_sk t); sh_mask := sk_mask (tl_sk t);
     sh_words := length (bl_words (tl_bl t)); sh_size := bl_size (tl_bl t); sh_exp := bl_exp (tl_bl t);
     sh_locs := bl_locs (tl_bl t); sh_shift := bl_shift (tl_bl t); sh_samples := tl_samples t |}.

Definition zero_of (s : shape) : tinylfu :=
  {| tl_sk := {| sk_rows := map (fun n => repeat 0 n) (sh_rows s); sk_seeds := sh_seeds s; sk_mask := sh_mask s |};
     tl_bl := {| bl_words := repeat 0 (sh_words s); bl_size := sh_size s; bl_exp := sh_exp s; bl_locs := sh_locs s; bl_shift := sh_shift s |};
     tl_samples := sh_samples s; tl_w := 0 |}.

Lemma tl_clear_is_zero t : tl_clear t = zero_of (tl_shape t).
Proof.
  unfold tl_clear, zero_of, tl_shape, sk_clear, bl_clear, bl_reset, with_words. cbn [sh_rows sh_seeds sh_mask sh_words sh_size sh_exp sh_locs sh_shift sh_samples].
  f_equal; [f_equal|f_equal].
  - rewrite map_map. apply map_ext. intros r. unfold row_clear. apply map_const_repeat.
  - apply map_const_repeat.
Qed.

Lemma tl_new_clear ctrs seeds entries locs t : tl_new ctrs seeds entries locs = Some t -> tl_clear t = t.
Proof.
  unfold tl_new. destruct (sk_new ctrs seeds) as [sk|] eqn:E; [|discriminate]. intros [= <-].
  unfold tl_clear; cbn [tl_sk tl_bl tl_samples]. rewrite (sk_new_clear _ _ _ E). f_equal.
  unfold bl_clear, bl_reset, bl_new. destruct (get_size entries) as [sz e]. unfold with_words; cbn [bl_words bl_size bl_exp bl_locs bl_shift].
  rewrite map_repeat. reflexivity.
Qed.

(* reset and clear map every byte of every row and every word of the doorkeeper *)
Lemma bytewise_shape (f g : N -> N) t w :
  tl_shape {| tl_sk := {| sk_rows := map (map f) (sk_rows (tl_sk t)); sk_seeds := sk_seeds (tl_sk t); sk_mask := sk_mask (tl_sk t) |};
              tl_bl := with_words (tl_bl t) (map g (bl_words (tl_bl t))); tl_samples := tl_samples t; tl_w := w |} = tl_shape t.
Proof.
  unfold tl_shape, with_words. cbn [tl_sk tl_bl tl_samples sk_rows sk_seeds sk_mask bl_words bl_size bl_exp bl_locs bl_shift].
  rewrite map_map, map_length. f_equal. apply map_ext. intros r. apply map_length.
Qed.

Lemma tl_reset_shape t : tl_shape (tl_reset t) = tl_shape t.
Proof. exact (bytewise_shape _ _ t 0). Qed.

Lemma tl_clear_shape t : tl_shape (tl_clear t) = tl_shape t.
Proof. exact (bytewise_shape _ _ t 0). Qed.

Lemma tl_try_reset_shape t : tl_shape (tl_try_reset t) = tl_shape t.
Proof. unfold tl_try_reset. destruct (tl_samples t <=? tl_w t + 1); [apply tl_reset_shape|reflexivity]. Qed.

Lemma tl_increment_shape t h t' : tl_increment t h = Some t' -> tl_shape t' = tl_shape t.
Proof.
  unfold tl_increment, bl_contains_or_add. destruct (bl_contains (tl_bl t) h) as [[|]|]; try discriminate.
  - destruct (sk_inc (tl_sk t) h) as [sk'|] eqn:E; [|discriminate]. intros H; inversion H; subst. rewrite tl_try_reset_shape.
    unfold sk_inc in E. destruct (rows_inc _ _ _ _) as [rs|] eqn:R; [|discriminate]. inversion E; subst.
    unfold tl_shape. cbn [tl_sk tl_bl tl_samples sk_rows sk_seeds sk_mask]. rewrite (rows_inc_lengths _ _ _ _ _ R). reflexivity.
  - unfold bl_add. destruct (ws_add _ _ _ _ _) as [ws|] eqn:E; [|discriminate]. intros H; inversion H; subst. rewrite tl_try_reset_shape.
    unfold tl_shape, with_words. cbn [tl_sk tl_bl tl_samples bl_words bl_size bl_exp bl_locs bl_shift]. rewrite (ws_add_length _ _ _ _ _ _ E). reflexivity.
Qed.

Lemma tl_increments_shape : forall hs t t', tl_increments t hs = Some t' -> tl_shape t' = tl_shape t.
Proof.
  induction hs as [|h hs IH]; intros t t'; cbn [tl_increments].
  - intros H; inversion H; reflexivity.
  - destruct (tl_increment t h) as [t1|] eqn:E; [|discriminate]. intros H. rewrite (IH _ _ H). apply (tl_increment_shape _ _ _ E).
Qed.

Theorem estimator_shape_is_invariant c st l st' o :
  cstep c st l = StepOk st' o -> tl_shape (s_tlfu st') = tl_shape (s_tlfu st).
Proof.
  intros H. destruct (step_tlfu c st l st' o H) as [E|[(h & b & _ & _ & E)|(h & sig & _ & _ & E)]].
  - rewrite E. reflexivity.
  - apply (tl_increments_shape _ _ _ E).
  - rewrite E. apply tl_clear_shape.
Qed.

(* C11: whatever lookups, aging resets and earlier clears happened, clear() leaves the estimator
   exactly as the builder made it *)
Theorem clear_restores_the_fresh_estimator c mc ctrs seeds entries locs t0 now st h sig :
  tl_new ctrs seeds entries locs = Some t0 ->
  reach c (cinit c mc t0 now) st -> s_pc st = PClearAfterDrain sig ->
  exists st', proc_step c st h = StepOk st' (mk_out PtProcClearAfterPolicy [] RNone) /\
    s_tlfu st' = t0 /\ sl_kc (s_slfu st') = [] /\ sl_used (s_slfu st') = 0%Z.
Proof.
  intros N0 R PC.
  assert (SH : tl_shape (s_tlfu st) = tl_shape t0).
  { apply (reach_ind_inv c (cinit c mc t0 now) (fun s => tl_shape (s_tlfu s) = tl_shape t0)); [reflexivity| |exact R].
    intros s0 l s1 o E S. rewrite (estimator_shape_is_invariant c s0 l s1 o S). exact E. }
  unfold proc_step. rewrite PC. eexists. split; [reflexivity|]. sproj.
  split; [|split; reflexivity].
  (* clear looks at the shape only, which is that of t0 *)
  rewrite tl_clear_is_zero, SH, <- tl_clear_is_zero. exact (tl_new_clear _ _ _ _ _ N0).
Qed.
