(* PolicyProofs.v — invariants and rule theorems for SampledLFU and the policy `add` loop (C01, C07;
   C20: `add` does not panic). *)
From StrettoModel Require Import BaseProofs Policy.
Open Scope Z_scope.

Definition WF (s : slfu) : Prop := sl_used s = asum (sl_kc s) /\ NoDup (akeys (sl_kc s)).
Definition NonNeg (s : slfu) : Prop := forall k c, aget k (sl_kc s) = Some c -> 0 <= c.

Lemma sl_update_charged s k c p : aget k (sl_kc s) = Some p ->
  sl_update s k c = ({| sl_max := sl_max s; sl_used := sl_used s + (c - p); sl_kc := aset k c (sl_kc s) |},
                     true, (MKeyUpdate, 1%N) :: update_delta p c).
Proof. intros E. unfold sl_update. rewrite E. reflexivity. Qed.

Lemma sl_update_absent s k c : aget k (sl_kc s) = None -> sl_update s k c = (s, false, []).
Proof. intros E. unfold sl_update. rewrite E. reflexivity. Qed.

Lemma sl_update_max s k c : sl_max (fst (fst (sl_update s k c))) = sl_max s.
Proof. unfold sl_update. destruct (aget k (sl_kc s)); reflexivity. Qed.

Lemma WF_new mc : WF (sl_new mc).
Proof. split; [reflexivity|constructor]. Qed.

Lemma WF_increment s k c : WF s -> aget k (sl_kc s) = None -> WF (sl_increment s k c).
Proof.
  intros [Hu ND] E. split; cbn; [rewrite asum_aset, E by assumption; lia|apply nodup_aset; assumption].
Qed.

Lemma WF_update s k c : WF s -> WF (fst (fst (sl_update s k c))).
Proof.
  intros [Hu ND]. unfold sl_update. destruct (aget k (sl_kc s)) eqn:E; [|split; assumption].
  split; cbn; [rewrite asum_aset, E by assumption; lia|apply nodup_aset; assumption].
Qed.

Lemma WF_clear s : WF (sl_clear s).
Proof. split; [reflexivity|constructor]. Qed.

Lemma WF_set_max s mc : WF s -> WF (sl_set_max s mc).
Proof. intros W. exact W. Qed.

Lemma WF_remove s k : WF s -> WF (fst (sl_remove s k)).
Proof.
  intros [Hu ND]. unfold sl_remove. destruct (aget k (sl_kc s)) eqn:E; [|split; assumption].
  split; cbn; [rewrite asum_adel, E by assumption; lia|apply nodup_adel; assumption].
Qed.

Lemma pol_remove_fst s k : fst (pol_remove s k) = fst (sl_remove s k).
Proof. unfold pol_remove. destruct (sl_remove s k) as [s' [c|]]; reflexivity. Qed.

Lemma WF_pol_remove s k : WF s -> WF (fst (pol_remove s k)).
Proof. rewrite pol_remove_fst. apply WF_remove. Qed.

Lemma sl_remove_max s k : sl_max (fst (sl_remove s k)) = sl_max s.
Proof. unfold sl_remove. destruct (aget k (sl_kc s)); reflexivity. Qed.

Lemma sl_remove_used_le s k : NonNeg s -> sl_used (fst (sl_remove s k)) <= sl_used s.
Proof.
  intros NN. unfold sl_remove. destruct (aget k (sl_kc s)) eqn:E; cbn; [|lia].
  specialize (NN _ _ E). lia.
Qed.

Lemma sl_remove_get s k k' :
  aget k' (sl_kc (fst (sl_remove s k))) = if N.eqb k' k then None else aget k' (sl_kc s).
Proof.
  unfold sl_remove. destruct (aget k (sl_kc s)) eqn:E; cbn.
  - destruct (N.eqb_spec k' k) as [->|Hne]; [apply aget_adel_same|apply aget_adel_other; assumption].
  - destruct (N.eqb_spec k' k) as [->|Hne]; [assumption|reflexivity].
Qed.

Lemma NonNeg_remove s k : NonNeg s -> NonNeg (fst (sl_remove s k)).
Proof.
  intros NN k' c. rewrite sl_remove_get. destruct (N.eqb k' k); [discriminate|]. apply NN.
Qed.

Lemma NonNeg_aset s s' k c : NonNeg s -> 0 <= c -> sl_kc s' = aset k c (sl_kc s) -> NonNeg s'.
Proof.
  intros NN Hc E k' c'. rewrite E. destruct (N.eq_dec k' k) as [->|Hne].
  - rewrite aget_aset_same. intros [= <-]. assumption.
  - rewrite aget_aset_other by assumption. apply NN.
Qed.

Lemma NonNeg_increment s k c : NonNeg s -> 0 <= c -> NonNeg (sl_increment s k c).
Proof. intros NN Hc. eapply NonNeg_aset; [exact NN|exact Hc|reflexivity]. Qed.

Lemma NonNeg_update s k c : NonNeg s -> 0 <= c -> NonNeg (fst (fst (sl_update s k c))).
Proof.
  intros NN Hc. unfold sl_update. destruct (aget k (sl_kc s)); [|exact NN].
  eapply NonNeg_aset; [exact NN|exact Hc|reflexivity].
Qed.

(* s1 is s with some keys removed *)
Definition shrunk (s s1 : slfu) : Prop :=
  sl_max s1 = sl_max s /\
  (forall k c, aget k (sl_kc s1) = Some c -> aget k (sl_kc s) = Some c) /\
  (WF s -> WF s1) /\ (NonNeg s -> sl_used s1 <= sl_used s).

Lemma shrunk_refl s : shrunk s s.
Proof. unfold shrunk. auto using Z.le_refl. Qed.

Lemma shrunk_NonNeg s s1 : shrunk s s1 -> NonNeg s -> NonNeg s1.
Proof. intros (_ & Sub & _) NN k c H. exact (NN k c (Sub k c H)). Qed.

Lemma shrunk_WF s s1 : shrunk s s1 -> WF s -> WF s1.
Proof. intros (_ & _ & W & _). exact W. Qed.

Lemma shrunk_absent s s1 k : shrunk s s1 -> aget k (sl_kc s) = None -> aget k (sl_kc s1) = None.
Proof.
  intros (_ & Sub & _) E. destruct (aget k (sl_kc s1)) as [c|] eqn:E1; [|reflexivity].
  apply Sub in E1. congruence.
Qed.

Lemma shrunk_remove s s1 k : shrunk s s1 -> shrunk s (fst (pol_remove s1 k)).
Proof.
  intros Sh. pose proof (shrunk_NonNeg _ _ Sh) as NN1. destruct Sh as (M & Sub & W & U).
  rewrite pol_remove_fst. split; [rewrite sl_remove_max; exact M|]. split; [|split].
  - intros k' c. rewrite sl_remove_get. destruct (N.eqb k' k); [discriminate|apply Sub].
  - intros H. apply WF_remove. auto.
  - intros H. pose proof (sl_remove_used_le s1 k (NN1 H)). specialize (U H). lia.
Qed.

(* the scan keeps the accumulator (ak, ah, ai, ac) unless some element is strictly less popular; then
   the result is the first element of least popularity, at position idx + j *)
Lemma find_min_spec est l : forall idx ak ah ai ac mk mh mi mc,
  find_min est l idx (ak, ah, ai, ac) = (mk, mh, mi, mc) ->
  mh <= ah /\ (forall p, In p l -> mh <= est (fst p)) /\
  ((mk, mh, mi, mc) = (ak, ah, ai, ac)
   \/ exists j, mi = (idx + j)%nat /\ nth_error l j = Some (mk, mc) /\ mh = est mk /\ mh < ah /\
        forall j' p, (j' < j)%nat -> nth_error l j' = Some p -> mh < est (fst p)).
Proof.
  induction l as [|[k c] l IH]; intros idx ak ah ai ac mk mh mi mc H; cbn [find_min] in H.
  - inversion H; subst. split; [lia|]. split; [intros p []|left; reflexivity].
  - destruct (Z.ltb_spec (est k) ah) as [E|E]; apply IH in H;
      destruct H as (H1 & H2 & [H3|(j & -> & Hn & Hm & Hlt & Hb)]);
      (split; [lia|]; split; [intros p [<-|Hp]; [cbn; lia|auto]|]).
    (* the minimum lies further on, whether or not (k, c) improved on the accumulator *)
    2,4: right; exists (S j); repeat split; trivial; try lia;
         intros [|j'] p Hj' Hp; [injection Hp as <-; cbn; lia|apply (Hb j'); [lia|exact Hp]].
    + injection H3 as -> -> -> ->. right. exists O. repeat split; trivial. intros j' p Hj'; lia.
    + left. exact H3.
Qed.

(* C07: the victim is a least popular candidate of the sample, and the first of these *)
Lemma find_min0_spec est l mk mh mi mc :
  (forall k, est k < I64MAX) -> l <> [] ->
  find_min0 est l = (mk, mh, mi, mc) ->
  nth_error l mi = Some (mk, mc) /\ mh = est mk /\
  (forall p, In p l -> mh <= est (fst p)) /\
  (forall j p, (j < mi)%nat -> nth_error l j = Some p -> mh < est (fst p)).
Proof.
  intros Hest Hne H. apply find_min_spec in H.
  destruct H as (_ & Hall & [[= -> -> -> ->]|(j & -> & Hn & Hm & _ & Hbefore)]); [|auto].
  destruct l as [|p l]; [congruence|]. specialize (Hall p (or_introl eq_refl)).
  specialize (Hest (fst p)). lia.
Qed.

Lemma find_min0_in est smp mk mh mi mc :
  smp <> [] -> (forall k, est k < I64MAX) -> find_min0 est smp = (mk, mh, mi, mc) -> In (mk, mc) smp.
Proof.
  intros Hne Hest H. destruct (find_min0_spec est smp mk mh mi mc Hest Hne H) as (Hn & _).
  eapply nth_error_In. exact Hn.
Qed.

Lemma find_min0_nil est : find_min0 est [] = (0%N, I64MAX, O, 0).
Proof. reflexivity. Qed.

Lemma swap_remove_snoc (l : list pair) y i : swap_remove (l ++ [y]) i = list_set l i y.
Proof.
  unfold swap_remove. rewrite rev_app_distr, app_length, Nat.add_sub. cbn [rev app].
  revert i. induction l as [|h t IH]; intros [|i]; cbn [app list_set length firstn]; f_equal; auto.
  rewrite firstn_app, firstn_all, Nat.sub_diag. apply app_nil_r.
Qed.

Lemma swap_remove_In l i p : In p (swap_remove l i) -> In p l.
Proof.
  destruct l as [|y l _] using rev_ind; [intros []|]. rewrite swap_remove_snoc, in_app_iff.
  intros H. destruct (In_list_set _ _ _ _ H) as [->|X]; cbn; auto.
Qed.

Lemma pairs_eqb_eq a : forall b, pairs_eqb a b = true <-> a = b.
Proof.
  induction a as [|[k1 c1] a IH]; intros [|[k2 c2] b]; cbn [pairs_eqb]; try (split; [discriminate|congruence]).
  - split; reflexivity.
  - rewrite !andb_true_iff, N.eqb_eq, Z.eqb_eq, IH.
    split; [intros [[-> ->] ->]; reflexivity|intros [= -> -> ->]; auto].
Qed.

Lemma pair_in_iff p m : pair_in p m = true <-> In p m.
Proof.
  induction m as [|[k c] m IH]; cbn [pair_in In]; [split; [discriminate|tauto]|].
  rewrite orb_true_iff, andb_true_iff, N.eqb_eq, Z.eqb_eq, IH. destruct p as [k' c']; cbn [fst snd].
  split; (intros [H|H]; [left|right; exact H]); [destruct H; congruence|inversion H; auto].
Qed.

Lemma legal_fill_iff kc sample smp :
  legal_fill kc sample smp = true <->
  exists more, smp = sample ++ more /\
    if (SAMPLES <=? length sample)%nat then more = []
    else NoDup (map fst more) /\ incl more kc /\
         length smp = Nat.min SAMPLES (length sample + length kc).
Proof.
  unfold legal_fill. destruct (SAMPLES <=? length sample)%nat.
  - rewrite pairs_eqb_eq. split; [intros <-; exists []; rewrite app_nil_r; auto|].
    intros (more & -> & ->). symmetry. apply app_nil_r.
  - rewrite !andb_true_iff, pairs_eqb_eq, nodup_N_NoDup, forallb_forall, Nat.eqb_eq. split.
    + intros (((Hpre & ND) & All) & Len). exists (skipn (length sample) smp).
      split; [rewrite Hpre at 1; symmetry; apply firstn_skipn|].
      split; [exact ND|]. split; [|exact Len]. intros p Hp. apply pair_in_iff. auto.
    + intros (more & -> & ND & Inc & Len).
      rewrite firstn_app, Nat.sub_diag, firstn_all, firstn_O, app_nil_r.
      rewrite skipn_app, Nat.sub_diag, skipn_all, skipn_O.
      repeat split; trivial. intros p Hp. apply pair_in_iff. auto.
Qed.

Lemma legal_fill_elems kc sample smp p :
  legal_fill kc sample smp = true -> In p smp -> In p sample \/ In p kc.
Proof.
  intros H Hp. apply legal_fill_iff in H. destruct H as (more & -> & Hm).
  destruct (SAMPLES <=? length sample)%nat; [subst more; rewrite app_nil_r in Hp; auto|].
  destruct Hm as (_ & Inc & _). apply in_app_or in Hp. destruct Hp; auto.
Qed.

(* C07: the first sample has five candidates, or all of them if fewer are charged; they are
   distinct and carry their current charges *)
Theorem first_sample_is_five_or_all (kc : amap Z) smp :
  legal_fill kc [] smp = true ->
  length smp = Nat.min SAMPLES (length kc) /\ NoDup (map fst smp) /\
  (forall p, In p smp -> pair_in p kc = true).
Proof.
  intros H. apply legal_fill_iff in H. destruct H as (more & -> & H). cbn [app length Nat.add] in *.
  destruct (SAMPLES <=? 0)%nat eqn:E.
  - subst more. apply Nat.leb_le in E. split; [cbn [length]; lia|]. split; [constructor|intros p []].
  - destruct H as (ND & Inc & Len). split; [exact Len|]. split; [exact ND|].
    intros p Hp. apply pair_in_iff. auto.
Qed.

Definition entry_ok (est : key -> Z) (e : iter_log) : Prop :=
  il_room e < 0 /\
  find_min0 est (il_sample e) = (il_min_key e, il_min_hits e, il_min_id e, il_min_cost e).

Definition victim_of (e : iter_log) : pair := (il_min_key e, il_min_cost e).

Section Loop.
  Variables (est : key -> Z) (ih : Z) (k : key) (cost : Z).

  (* what a turn of the loop logs at policy s holding `sample`: room is lacking, the refill is legal,
     its minimum is found *)
  Definition turn (s : slfu) (sample : list pair) (e : iter_log) : Prop :=
    il_room e = sl_room_left s cost /\ entry_ok est e /\
    legal_fill (sl_kc s) sample (il_sample e) = true.

  (* the ways out of the loop, at policy s with sample, victims, log and metrics so far *)
  Inductive loop_exit s sample victims log mets : add_result -> Prop :=
  | exit_admit : 0 <= sl_room_left s cost ->
      loop_exit s sample victims log mets
        (AddDone (sl_increment s k cost) (Some victims) true log (mets ++ [(MCostAdd, u64_of_i64 cost)]))
  | exit_reject e : turn s sample e -> ih < il_min_hits e ->
      loop_exit s sample victims log mets
        (AddDone s (Some victims) false (log ++ [e]) (mets ++ [(MRejectSets, 1%N)]))
  | exit_panic e : turn s sample e -> il_min_hits e <= ih -> il_sample e = [] ->
      loop_exit s sample victims log mets AddPanic
  | exit_oracle : sl_room_left s cost < 0 -> loop_exit s sample victims log mets AddOutOfOracle
  | exit_illegal smp : sl_room_left s cost < 0 -> legal_fill (sl_kc s) sample smp = false ->
      loop_exit s sample victims log mets (AddIllegalOracle s sample smp).

  Variable Inv : slfu -> list pair -> list pair -> list iter_log -> list mevent -> Prop.
  Hypothesis Inv_evict : forall s sample victims log mets e,
    Inv s sample victims log mets -> turn s sample e -> il_min_hits e <= ih -> il_sample e <> [] ->
    Inv (fst (pol_remove s (il_min_key e))) (swap_remove (il_sample e) (il_min_id e))
      (victims ++ [victim_of e]) (log ++ [e]) (mets ++ snd (pol_remove s (il_min_key e))).

  (* What holds when the loop is entered and is kept by every evicting turn holds where the loop
     is left.  What is proved below about the end of the loop is this rule at some Inv. *)
  Lemma evict_loop_rule oracle : forall s sample victims log mets,
    Inv s sample victims log mets ->
    exists s1 sample1 victims1 log1 mets1, Inv s1 sample1 victims1 log1 mets1 /\
      loop_exit s1 sample1 victims1 log1 mets1
        (evict_loop est ih k cost oracle s sample victims log mets).
  Proof.
    induction oracle as [|smp oracle IH]; intros s sample victims log mets HI; cbn [evict_loop];
      (destruct (Z.leb_spec 0 (sl_room_left s cost)) as [R|R];
       [do 5 eexists; split; [exact HI|constructor; exact R]|]).
    - do 5 eexists; split; [exact HI|constructor; exact R].
    - destruct (legal_fill (sl_kc s) sample smp) eqn:LF; cbn [negb];
        [|do 5 eexists; split; [exact HI|constructor; assumption]].
      destruct (find_min0 est smp) as [[[mk mh] mi] mc] eqn:FM.
      set (e := {| il_sample := smp; il_min_key := mk; il_min_hits := mh; il_min_id := mi;
                   il_min_cost := mc; il_room := sl_room_left s cost |}).
      assert (T : turn s sample e) by (repeat split; assumption).
      destruct (Z.ltb_spec ih mh) as [E|E];
        [do 5 eexists; split; [exact HI|exact (exit_reject _ _ _ _ _ e T E)]|].
      destruct smp as [|p smp'];
        [do 5 eexists; split; [exact HI|exact (exit_panic _ _ _ _ _ e T E eq_refl)]|].
      assert (X := Inv_evict _ _ _ _ _ e HI T E). subst e. cbn [il_min_key] in X.
      destruct (pol_remove s mk) as [s1 ev]. apply IH, X. discriminate.
  Qed.
End Loop.

(* The loop removes keys, which takes the policy to some s1 and emits ev, and there admits k (CostAdd)
   or refuses it (RejectSets).  J is whatever one wants to know of s1 and ev: it holds of s and no
   event, and a removal keeps it. *)
Lemma evict_loop_state (J : slfu -> list mevent -> Prop)
    est ih k cost oracle s sample victims log mets s' v a l m :
  J s [] ->
  (forall s1 ev x, shrunk s s1 -> J s1 ev -> J (fst (pol_remove s1 x)) (ev ++ snd (pol_remove s1 x))) ->
  evict_loop est ih k cost oracle s sample victims log mets = AddDone s' v a l m ->
  exists s1 ev, shrunk s s1 /\ J s1 ev /\ (a = true -> 0 <= sl_room_left s1 cost) /\
    s' = (if a then sl_increment s1 k cost else s1) /\
    m = mets ++ ev ++ [if a then (MCostAdd, u64_of_i64 cost) else (MRejectSets, 1%N)].
Proof.
  intros J0 Jrm H.
  set (Inv := fun s1 (_ _ : list pair) (_ : list iter_log) m1 =>
                shrunk s s1 /\ exists ev, m1 = mets ++ ev /\ J s1 ev).
  assert (Init : Inv s sample victims log mets)
    by (split; [apply shrunk_refl|exists []; rewrite app_nil_r; auto]).
  apply (evict_loop_rule est ih k cost Inv) with (oracle := oracle) in Init.
  - destruct Init as (s1 & ? & ? & ? & ? & (Sh & ev & -> & HJ) & X). rewrite H in X.
    exists s1, ev. split; [exact Sh|]. split; [exact HJ|].
    inversion X; subst; rewrite <- app_assoc; (split; [easy|auto]).
  - intros s1 ? ? ? ? e (Sh & ev & -> & HJ) _ _ _. split; [apply shrunk_remove, Sh|].
    exists (ev ++ snd (pol_remove s1 (il_min_key e))). rewrite app_assoc. auto.
Qed.

Lemma evict_loop_samples_legal est ih k cost oracle :
  forall s sample victims log mets s' v a l m,
  evict_loop est ih k cost oracle s sample victims log mets = AddDone s' v a l m ->
  exists newl, l = log ++ newl /\
    match newl with
    | [] => True
    | e :: _ => legal_fill (sl_kc s) sample (il_sample e) = true
    end.
Proof.
  (* the first turn logs its refill, which was checked against s and sample; later turns append *)
  induction oracle as [|smp oracle IH]; intros s sample victims log mets s' v a l m; cbn [evict_loop];
    (destruct (0 <=? sl_room_left s cost);
     [intros [= _ _ _ <- _]; exists []; split; [symmetry; apply app_nil_r|exact I]|]).
  - discriminate.
  - destruct (legal_fill (sl_kc s) sample smp) eqn:LF; [cbn [negb]|discriminate].
    destruct (find_min0 est smp) as [[[mk mh] mi] mc].
    destruct (ih <? mh); [intros [= _ _ _ <- _]; eexists [_]; split; [reflexivity|exact LF]|].
    destruct smp; [discriminate|]. destruct (pol_remove s mk) as [s1 ev]. intros H.
    apply IH in H. destruct H as (newl & -> & _). eexists (_ :: newl).
    split; [rewrite <- app_assoc; reflexivity|exact LF].
Qed.

(* C20: the eviction loop never indexes an empty sample: there the minimum is i64::MAX, every
   estimate is below it, so the newcomer is rejected first *)
Lemma evict_loop_no_panic est ih k cost oracle s sample victims log mets :
  ih < I64MAX -> evict_loop est ih k cost oracle s sample victims log mets <> AddPanic.
Proof.
  intros Hih H.
  destruct (evict_loop_rule est ih k cost (fun _ _ _ _ _ => True) (fun _ _ _ _ _ _ _ _ _ _ => I)
              oracle s sample victims log mets I) as (? & ? & ? & ? & ? & _ & X).
  rewrite H in X. inversion X as [| |e (_ & (_ & FM) & _) Hle Hs| |].
  rewrite Hs, find_min0_nil in FM. injection FM as _ Hh _ _. lia.
Qed.

(* the four ways through LFUPolicy::add *)
Inductive pol_add_spec est oracle s k cost : add_result -> Prop :=
| AddOversize : sl_max s < cost -> pol_add_spec est oracle s k cost (AddDone s None false [] [])
| AddUpdate p : cost <= sl_max s -> aget k (sl_kc s) = Some p ->
    pol_add_spec est oracle s k cost
      (AddDone {| sl_max := sl_max s; sl_used := sl_used s + (cost - p); sl_kc := aset k cost (sl_kc s) |}
               None false [] ((MKeyUpdate, 1%N) :: update_delta p cost))
| AddRoom : cost <= sl_max s -> aget k (sl_kc s) = None -> 0 <= sl_room_left s cost ->
    pol_add_spec est oracle s k cost
      (AddDone (sl_increment s k cost) None true [] [(MCostAdd, u64_of_i64 cost)])
| AddLoop : cost <= sl_max s -> aget k (sl_kc s) = None -> sl_room_left s cost < 0 ->
    pol_add_spec est oracle s k cost (evict_loop est (est k) k cost oracle s [] [] [] []).

Lemma pol_addP est oracle s k cost : pol_add_spec est oracle s k cost (pol_add est oracle s k cost).
Proof.
  unfold pol_add. destruct (Z.ltb_spec (sl_max s) cost); [constructor; assumption|].
  destruct (aget k (sl_kc s)) as [p|] eqn:E.
  - rewrite (sl_update_charged _ _ _ _ E). econstructor; eassumption.
  - rewrite (sl_update_absent _ _ _ E).
    destruct (Z.leb_spec 0 (sl_room_left s cost)); constructor; assumption.
Qed.

Lemma pol_add_state est oracle s k cost s' v a l m :
  pol_add est oracle s k cost = AddDone s' v a l m ->
  if a then cost <= sl_max s /\ aget k (sl_kc s) = None /\
            exists s1, shrunk s s1 /\ 0 <= sl_room_left s1 cost /\ s' = sl_increment s1 k cost
  else sl_max s < cost /\ s' = s \/
       cost <= sl_max s /\
       ((exists p, aget k (sl_kc s) = Some p /\ s' = fst (fst (sl_update s k cost))) \/
        aget k (sl_kc s) = None /\ sl_room_left s cost < 0 /\ shrunk s s').
Proof.
  destruct (pol_addP est oracle s k cost) as [Hm|p Hm Hp|Hm Hk Hr|Hm Hk Hr].
  - intros [= <- _ <- _ _]. auto.
  - intros [= <- _ <- _ _]. right. split; [exact Hm|left]. exists p.
    rewrite (sl_update_charged _ _ _ _ Hp). auto.
  - intros [= <- _ <- _ _]. repeat split; trivial. exists s. auto using shrunk_refl.
  - intros H. apply (evict_loop_state (fun _ _ => True)) in H; [|exact I|auto].
    destruct H as (s1 & _ & Sh & _ & R & -> & _). destruct a.
    + repeat split; trivial. exists s1. auto.
    + right. split; [exact Hm|right]. auto.
Qed.

Lemma pol_add_keeps est oracle s k cost s' v a l m :
  pol_add est oracle s k cost = AddDone s' v a l m ->
  sl_max s' = sl_max s /\ (WF s -> WF s') /\ (NonNeg s -> 0 <= cost -> NonNeg s').
Proof.
  intros H. apply pol_add_state in H. destruct a.
  - destruct H as (_ & Hk & s1 & Sh & _ & ->). apply (shrunk_absent _ _ _ Sh) in Hk.
    pose proof (shrunk_NonNeg _ _ Sh) as NN1. destruct Sh as (M & _ & W & _).
    split; [exact M|]. split; [intros; apply WF_increment; auto|intros; apply NonNeg_increment; auto].
  - destruct H as [(_ & ->)|(_ & [(p & _ & ->)|(_ & _ & Sh)])].
    + auto.
    + split; [apply sl_update_max|]. split; [apply WF_update|apply NonNeg_update].
    + pose proof (shrunk_NonNeg _ _ Sh). destruct Sh as (M & _ & W & _). auto.
Qed.

Lemma pol_add_WF_only est oracle s k cost s' v a l m :
  WF s -> pol_add est oracle s k cost = AddDone s' v a l m -> WF s'.
Proof. intros W H. apply (pol_add_keeps _ _ _ _ _ _ _ _ _ _ H), W. Qed.

(* C01: every admission of a new key re-establishes total <= max_cost and charges exactly cost. *)
Theorem add_admits_under_max est oracle s k cost s' v l m :
  pol_add est oracle s k cost = AddDone s' v true l m ->
  sl_used s' <= sl_max s' /\ aget k (sl_kc s') = Some cost /\ cost <= sl_max s' /\
  aget k (sl_kc s) = None.
Proof.
  intros H. apply pol_add_state in H. destruct H as (Hm & Hk & s1 & (M & _) & R & ->).
  unfold sl_room_left in R. cbn. rewrite aget_aset_same. repeat split; trivial; lia.
Qed.

(* C01: an entry whose own cost exceeds max_cost is never admitted; the policy is left untouched. *)
Theorem oversize_never_admitted est oracle s k cost :
  sl_max s < cost -> pol_add est oracle s k cost = AddDone s None false [] [].
Proof. intros H. destruct (pol_addP est oracle s k cost); [reflexivity|lia..]. Qed.

(* C07: when there is room a new key is always admitted and nothing is evicted. *)
Theorem room_admits_without_eviction est oracle s k cost :
  cost <= sl_max s -> aget k (sl_kc s) = None -> 0 <= sl_room_left s cost ->
  pol_add est oracle s k cost =
    AddDone (sl_increment s k cost) None true [] [(MCostAdd, u64_of_i64 cost)].
Proof.
  intros H1 H2 H3. destruct (pol_addP est oracle s k cost); [lia|congruence|reflexivity|lia].
Qed.

(* C07: the loop's log obeys the sampled-LFU rule. *)
Theorem pol_add_rule est oracle s k cost s' v a l m :
  cost <= sl_max s -> aget k (sl_kc s) = None -> sl_room_left s cost < 0 ->
  pol_add est oracle s k cost = AddDone s' v a l m ->
  Forall (entry_ok est) l /\
  (a = true -> v = Some (map victim_of l) /\ Forall (fun e => il_min_hits e <= est k) l /\
               0 <= sl_room_left s' 0) /\
  (a = false -> exists e, l = removelast l ++ [e] /\ est k < il_min_hits e /\
               v = Some (map victim_of (removelast l)) /\
               Forall (fun e => il_min_hits e <= est k) (removelast l)).
Proof.
  intros H1 H2 H3.
  destruct (pol_addP est oracle s k cost) as [Hm|p Hm Hp|Hm Hk Hr|Hm Hk Hr]; try lia; [congruence|].
  intros H.
  (* every turn logged so far has evicted its minimum *)
  set (Inv := fun (_ : slfu) (_ : list pair) victims log (_ : list mevent) =>
                victims = map victim_of log /\ Forall (entry_ok est) log /\
                Forall (fun e => il_min_hits e <= est k) log).
  assert (Init : Inv s [] [] [] []) by (repeat split; constructor).
  apply (evict_loop_rule est (est k) k cost Inv) with (oracle := oracle) in Init.
  - destruct Init as (s1 & ? & ? & log1 & ? & (-> & Hok & Hh) & X). rewrite H in X.
    inversion X as [R|e (_ & Ok & _) E| | |]; subst.
    + split; [exact Hok|]. split; [|discriminate]. intros _. unfold sl_room_left in *. cbn.
      repeat split; trivial; lia.
    + split; [apply Forall_app; auto|]. split; [discriminate|]. intros _. exists e.
      rewrite removelast_last. auto.
  - intros ? ? ? log ? e (-> & Hok & Hh) (_ & Ok & _) Hle _.
    split; [symmetry; apply map_app|]. split; apply Forall_app; auto.
Qed.

Lemma pol_add_no_panic est oracle s k cost : est k < I64MAX -> pol_add est oracle s k cost <> AddPanic.
Proof.
  intros H. destruct (pol_addP est oracle s k cost); try discriminate. apply evict_loop_no_panic, H.
Qed.

(* the policy driven by a sequence of its operations; [slack] is the overshoot allowed so far
   ([overshoot_is_update_slack]) *)
Inductive pop :=
| PAdd (est : key -> Z) (oracle : list (list pair)) (k : key) (cost : Z)
| PUpdate (k : key) (cost : Z)
| PRemove (k : key)
| PClear
| PSetMax (mc : Z).

Record pstate := { ps : slfu; slack : Z }.

Definition charged_cost (s : slfu) (k : key) : option Z := aget k (sl_kc s).

Definition pstep (st : pstate) (o : pop) : option pstate :=
  match o with
  | PAdd est oracle k cost =>
      match pol_add est oracle (ps st) k cost with
      | AddDone s' _ added _ _ =>
          Some {| ps := s';
                  slack := if added then 0
                           else match charged_cost (ps st) k with
                                | Some old => if sl_max (ps st) <? cost then slack st
                                              else slack st + Z.max 0 (cost - old)
                                | None => slack st
                                end |}
      | _ => None
      end
  | PUpdate k cost =>
      Some {| ps := fst (fst (sl_update (ps st) k cost));
              slack := match charged_cost (ps st) k with
                       | Some old => slack st + Z.max 0 (cost - old)
                       | None => slack st
                       end |}
  | PRemove k => Some {| ps := fst (pol_remove (ps st) k); slack := slack st |}
  | PClear => Some {| ps := sl_clear (ps st); slack := 0 |}
  | PSetMax mc => Some {| ps := sl_set_max (ps st) mc; slack := slack st + Z.max 0 (sl_max (ps st) - mc) |}
  end.

Definition op_nonneg (o : pop) : Prop :=
  match o with
  | PAdd _ _ _ cost => 0 <= cost
  | PUpdate _ cost => 0 <= cost
  | _ => True
  end.

(* The first disjunct is for the empty policy: sl_new and PClear give used = 0 whatever max_cost is,
   also a negative one (the builder accepts it), where 0 <= max_cost + slack fails. *)
Definition PInv (st : pstate) : Prop :=
  WF (ps st) /\ NonNeg (ps st) /\ 0 <= slack st /\
  (sl_kc (ps st) = [] \/ sl_used (ps st) <= sl_max (ps st) + slack st).

Lemma pstep_inv st o st' : PInv st -> op_nonneg o -> pstep st o = Some st' -> PInv st'.
Proof.
  intros (HWF & HNN & Hs & Hu) Hop. unfold PInv.
  destruct o as [est oracle k cost|k cost|k| |mc]; cbn [pstep]; unfold charged_cost.
  - destruct (pol_add est oracle (ps st) k cost) as [| | |s' v a l m] eqn:PA; try discriminate.
    intros [= <-]. cbn [ps slack].
    destruct (pol_add_keeps _ _ _ _ _ _ _ _ _ _ PA) as (M' & W' & N').
    split; [auto|]. split; [auto|]. destruct a.
    { destruct (add_admits_under_max _ _ _ _ _ _ _ _ _ PA) as (A1 & _). split; [lia|right; lia]. }
    apply pol_add_state in PA. destruct PA as [(Hm & ->)|(Hm & [(p & Hp & ->)|(Hk & Hr & _ & _ & _ & U)])].
    + apply Z.ltb_lt in Hm. rewrite Hm. destruct (aget k (sl_kc (ps st))); auto.
    + apply Z.ltb_ge in Hm. rewrite Hp, Hm, (sl_update_charged _ _ _ _ Hp). cbn. split; [lia|right].
      destruct Hu as [Hu|Hu]; [rewrite Hu in Hp; discriminate|lia].
    + (* the loop was entered over budget, and left the total no higher *)
      rewrite Hk. split; [assumption|right]. specialize (U HNN). destruct Hu as [Hu|Hu]; [|lia].
      destruct HWF as [HU _]. rewrite Hu in HU. cbn in HU. unfold sl_room_left in Hr. lia.
  - intros [= <-]. cbn [ps slack].
    split; [apply WF_update; assumption|]. split; [apply NonNeg_update; assumption|].
    destruct (aget k (sl_kc (ps st))) as [old|] eqn:Ek.
    + rewrite (sl_update_charged _ _ _ _ Ek). cbn. split; [lia|right].
      destruct Hu as [Hu|Hu]; [rewrite Hu in Ek; discriminate|lia].
    + rewrite (sl_update_absent _ _ _ Ek). auto.
  - intros [= <-]. cbn [ps slack]. rewrite pol_remove_fst.
    split; [apply WF_remove; assumption|]. split; [apply NonNeg_remove; assumption|].
    split; [assumption|]. destruct Hu as [Hu|Hu].
    + left. unfold sl_remove. rewrite Hu. exact Hu.
    + right. rewrite sl_remove_max. pose proof (sl_remove_used_le (ps st) k HNN). lia.
  - intros [= <-]. cbn. split; [apply WF_clear|]. split; [intros k c; discriminate|].
    split; [lia|left; reflexivity].
  - intros [= <-]. cbn. split; [exact HWF|]. split; [exact HNN|]. split; [lia|].
    destruct Hu as [Hu|Hu]; [left; assumption|right; lia].
Qed.

Fixpoint prun (st : pstate) (ops : list pop) : option pstate :=
  match ops with
  | [] => Some st
  | o :: ops' => match pstep st o with Some st' => prun st' ops' | None => None end
  end.

(* C01 for every history of policy operations: the charged total is the sum of the per-entry charges,
   keys are charged at most once, and the total exceeds max_cost by no more than `slack`: what
   in-place updates and a lowered max_cost have added since the last admission. *)
Theorem overshoot_is_update_slack mc ops st :
  Forall op_nonneg ops ->
  prun {| ps := sl_new mc; slack := 0 |} ops = Some st ->
  PInv st.
Proof.
  intros Hops. cut (PInv {| ps := sl_new mc; slack := 0 |}).
  - generalize {| ps := sl_new mc; slack := 0 |}.
    induction Hops as [|o ops Ho _ IH]; intros st0 H0; cbn [prun]; [intros [= <-]; exact H0|].
    destruct (pstep st0 o) as [st1|] eqn:E; [|discriminate]. apply IH, (pstep_inv _ _ _ H0 Ho E).
  - split; [apply WF_new|]. split; [intros k c; discriminate|]. split; [reflexivity|left; reflexivity].
Qed.

(* C01: after update_max_cost(mc), add runs on the same charges with mc for its max_cost. *)
Theorem max_cost_read_per_add est oracle s mc k cost :
  pol_add est oracle (sl_set_max s mc) k cost =
  pol_add est oracle {| sl_max := mc; sl_used := sl_used s; sl_kc := sl_kc s |} k cost.
Proof. reflexivity. Qed.
