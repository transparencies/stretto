(* CacheSteps.v — the transitions of the cache LTS: one inductive rule per way a step function of
   Cache.v returns StepOk.  A rule writes the post-state as `upd_*` applied to the pre-state, so that
   `sproj` reduces each projection of it to a new value or to the same projection of the pre-state.
   What a successful step does to the state is proved by cases on these rules (`cstep_rule`);
   statements that exhibit a step, or speak of a result other than StepOk, evaluate the step function. *)
From StrettoModel Require Import BaseProofs Cache.
Open Scope N_scope.

Ltac sproj :=
  cbn [s_store s_slfu s_tlfu s_ring s_pqueue s_buf s_clear_sigs s_done s_next_id s_ticks s_stop_msgs
       s_pol_stop_msgs s_now s_mets s_hist s_start s_closed s_pol_closed s_pc s_wpc s_clients
       upd_store upd_slfu upd_tlfu upd_ring upd_pqueue upd_buf upd_clear_sigs upd_done upd_next_id
       upd_ticks upd_stop_msgs upd_pol_stop_msgs upd_now upd_mets upd_hist upd_start upd_closed
       upd_pol_closed upd_pc upd_wpc upd_clients set_client fresh_id fst snd] in *.

Definition emit_mets (c : cfg) (m : metrics) (evs : list mevent) : metrics :=
  if c_metrics c then m_adds m evs else m.

Lemma let_pair {A B C} (p : A * B) (f : A -> B -> C) : (let '(a, b) := p in f a b) = f (fst p) (snd p).
Proof. destruct p. reflexivity. Qed.

Lemma emit_eq c st evs : emit c st evs = upd_mets st (emit_mets c (s_mets st) evs).
Proof. unfold emit, emit_mets. destruct (c_metrics c); destruct st; reflexivity. Qed.

Lemma policy_push_eq c st ks :
  policy_push c st ks = upd_mets (upd_pqueue st (s_pqueue (policy_push c st ks))) (s_mets (policy_push c st ks)).
Proof.
  unfold policy_push. destruct (s_pol_closed st); [destruct st; reflexivity|].
  destruct ks; [destruct st; reflexivity|].
  match goal with |- context [if ?b then _ else _] => destruct b end; rewrite emit_eq; destruct st; reflexivity.
Qed.

Lemma ring_push_eq c st k :
  ring_push c st k = upd_mets (upd_pqueue (upd_ring st (s_ring (ring_push c st k))) (s_pqueue (ring_push c st k)))
                              (s_mets (ring_push c st k)).
Proof.
  unfold ring_push. destruct (_ <=? _); [rewrite policy_push_eq|]; destruct st; reflexivity.
Qed.

(* the bounded insert buffer accepts an item while its receiver lives and it is not full: buf_send
   succeeds exactly then, and appends *)
Definition buf_room (c : cfg) (st : cstate) : Prop :=
  s_pc st <> PExited /\ N.of_nat (length (s_buf st)) < c_buf_cap c.

Lemma buf_send_some c st it st1 :
  buf_send c st it = Some st1 -> buf_room c st /\ st1 = upd_buf st (s_buf st ++ [it]).
Proof.
  unfold buf_send, buf_room. destruct (s_pc st); try discriminate;
    (destruct (N.ltb_spec (N.of_nat (length (s_buf st))) (c_buf_cap c)) as [L|L]; [|discriminate]);
    intros H; inversion H; (split; [split; [discriminate|assumption]|reflexivity]).
Qed.

Lemma buf_send_none c st it : buf_send c st it = None -> ~ buf_room c st.
Proof.
  unfold buf_send, buf_room. intros H (PC & L). apply N.ltb_lt in L. rewrite L in H.
  destruct (s_pc st); congruence.
Qed.

Lemma buf_send_full c st it : ~ buf_room c st -> buf_send c st it = None.
Proof. intros F. destruct (buf_send c st it) eqn:E; [apply buf_send_some in E; tauto|reflexivity]. Qed.

Lemma buf_room_send c st it : buf_room c st -> buf_send c st it = Some (upd_buf st (s_buf st ++ [it])).
Proof.
  unfold buf_send. intros (PC & L). apply N.ltb_lt in L. rewrite L. destruct (s_pc st); congruence.
Qed.

Lemma drain_buffer_eq st :
  drain_buffer st = (upd_done (upd_buf st []) (fst (drain_items (s_buf st) (s_done st) [])),
                     snd (drain_items (s_buf st) (s_done st) [])).
Proof. unfold drain_buffer. destruct (drain_items _ _ _). reflexivity. Qed.

Lemma drain_items_done its : forall d cbs id,
  mem_N id (fst (drain_items its d cbs)) = true <-> mem_N id d = true \/ In (IWait id) its.
Proof.
  induction its as [|it its IH]; intros d cbs id; cbn [drain_items In fst]; [tauto|].
  destruct it; rewrite IH; cbn [mem_N]; rewrite ?orb_true_iff, ?N.eqb_eq; intuition congruence.
Qed.

Lemma prepare_evict_eq c st k st1 :
  prepare_evict c st k = Some st1 -> st1 = upd_start (upd_hist st (s_hist st1)) (s_start st1).
Proof.
  unfold prepare_evict. destruct (c_metrics c); [destruct (aget k (s_start st)); [destruct (_ <? _); [discriminate|]|]|];
    intros [= <-]; destruct st; reflexivity.
Qed.

Lemma prepare_evicts_eq c cbs : forall st st1,
  prepare_evicts c st cbs = Some st1 -> st1 = upd_start (upd_hist st (s_hist st1)) (s_start st1).
Proof.
  induction cbs as [|cb cbs IH]; intros st st1; cbn [prepare_evicts].
  - intros H; inversion H; subst. destruct st1; reflexivity.
  - destruct cb; try apply IH. destruct (prepare_evict c st k) as [st0|] eqn:E; [|discriminate].
    intros H. rewrite (IH _ _ H), (prepare_evict_eq _ _ _ _ E). reflexivity.
Qed.

Lemma track_admission_eq c st k st1 :
  track_admission c st k = Some st1 -> st1 = upd_start st (s_start st1).
Proof.
  unfold track_admission. destruct (c_metrics c); [destruct (_ <? _); [discriminate|]|];
    intros [= <-]; destruct st; reflexivity.
Qed.

Lemma client_of_set st a b k : client_of (set_client st a k) b = if N.eqb b a then k else client_of st b.
Proof.
  unfold client_of, set_client; sproj. destruct (N.eqb_spec b a) as [->|Hne].
  - rewrite aget_aset_same. reflexivity.
  - rewrite aget_aset_other by assumption. reflexivity.
Qed.

Lemma client_of_set_same st a k : client_of (set_client st a k) a = k.
Proof. rewrite client_of_set, N.eqb_refl. reflexivity. Qed.

Lemma client_of_set_all (P : ccont -> Prop) st a k :
  (forall b, P (client_of st b)) -> P k -> forall b, P (client_of (set_client st a k) b).
Proof. intros H Hk b. rewrite client_of_set. destruct (N.eqb b a); [exact Hk|apply H]. Qed.

Definition closed_result (op : cop) : option res :=
  match op with
  | OInsert _ _ _ _ _ _ => Some (RBool false)
  | OGet _ _ => Some (RGet None)
  | OGetMutWrite _ _ _ => Some (RGetMut None)
  | ORemove _ _ | OWait | OClear | OClose => Some (RUnit true)
  | _ => None
  end.

Definition exit_cb (prev : option entry) : list cbk :=
  match prev with Some e => [CbExit (e_val e)] | None => [] end.

Inductive op_rule (c : cfg) (st : cstate) (a : N) : cop -> cstate -> out -> Prop :=
| OpClosed op r : s_closed st = true -> closed_result op = Some r ->
    op_rule c st a op st (mk_out PtFinish [] r)
| OpInsUpdate k cf v cost ttl only sto old : s_closed st = false ->
    st_try_update (c_validator c) (s_store st) k v cf {| t_created := s_now st; t_d := ttl |} = (sto, UUpdate old) ->
    op_rule c st a (OInsert k cf v cost ttl only)
      (set_client (upd_store st sto) a (KInsSend (IUpdate k cost (if (cost =? 0)%Z then c_coster c v else 0%Z)) k))
      (mk_out PtInsBeforeSend [CbExit old] RNone)
| OpInsAbsent k cf v cost ttl sto r : s_closed st = false ->
    st_try_update (c_validator c) (s_store st) k v cf {| t_created := s_now st; t_d := ttl |} = (sto, r) ->
    (forall old, r <> UUpdate old) ->
    op_rule c st a (OInsert k cf v cost ttl true) st (mk_out PtFinish [] (RBool false))
| OpInsNew k cf v cost ttl sto r : s_closed st = false ->
    st_try_update (c_validator c) (s_store st) k v cf {| t_created := s_now st; t_d := ttl |} = (sto, r) ->
    (forall old, r <> UUpdate old) ->
    op_rule c st a (OInsert k cf v cost ttl false)
      (set_client st a (KInsSend (INew k cf (cost + (if (cost =? 0)%Z then c_coster c v else 0%Z))%Z v
                                       {| t_created := s_now st; t_d := ttl |}) k))
      (mk_out PtInsBeforeSend [] RNone)
| OpGet k cf : s_closed st = false ->
    op_rule c st a (OGet k cf)
      (set_client (upd_mets (upd_pqueue (upd_ring st (s_ring (ring_push c st k))) (s_pqueue (ring_push c st k)))
                            (s_mets (ring_push c st k))) a (KGetStore k cf None))
      (mk_out PtGetAfterPush [] RNone)
| OpGetMut k cf v : s_closed st = false ->
    op_rule c st a (OGetMutWrite k cf v)
      (set_client (upd_mets (upd_pqueue (upd_ring st (s_ring (ring_push c st k))) (s_pqueue (ring_push c st k)))
                            (s_mets (ring_push c st k))) a (KGetStore k cf (Some v)))
      (mk_out PtGetAfterPush [] RNone)
(* get_ttl only reads: the state is unchanged; how the answer depends on store and clock is left to
   the function *)
| OpGetTtl k cf r : start_op c st a (OGetTtl k cf) = StepOk st (mk_out PtFinish [] (RTtl r)) ->
    op_rule c st a (OGetTtl k cf) st (mk_out PtFinish [] (RTtl r))
| OpRemove k cf sto prev : s_closed st = false -> st_try_remove (s_store st) k cf = (sto, prev) ->
    op_rule c st a (ORemove k cf) (set_client (upd_store st sto) a (KRemSend k cf))
      (mk_out PtRemBeforeSend (exit_cb prev) RNone)
| OpWait : s_closed st = false ->
    op_rule c st a OWait (set_client st a KWaitStart) (mk_out PtWaitAfterCheck [] RNone)
| OpClear : s_closed st = false ->
    op_rule c st a OClear (set_client st a KClearStart) (mk_out PtClearAfterCheck [] RNone)
| OpClose : s_closed st = false ->
    op_rule c st a OClose (set_client (upd_closed st true) a KCloseAfterFlag) (mk_out PtCloseAfterFlag [] RNone)
| OpMaxCost : op_rule c st a OMaxCost st (mk_out PtFinish [] (RZ (sl_max (s_slfu st))))
| OpUpdateMaxCost mc :
    op_rule c st a (OUpdateMaxCost mc) (upd_slfu st (sl_set_max (s_slfu st) mc)) (mk_out PtFinish [] (RUnit true))
| OpLen : op_rule c st a OLen st (mk_out PtFinish [] (RN (st_len (s_store st)))).

Theorem start_op_rule c st a op st' o : start_op c st a op = StepOk st' o -> op_rule c st a op st' o.
Proof.
  destruct op; cbn [start_op]; intros H;
    try (destruct (s_closed st) eqn:CL; [inversion H; subst; apply OpClosed; [exact CL|reflexivity]|]).
  - destruct (st_try_update _ _ _ _ _ _) as [sto r] eqn:TU.
    destruct r; [| | |inversion H; subst; eapply OpInsUpdate; eassumption];
      (destruct only_update; inversion H; subst; (first [eapply OpInsAbsent|eapply OpInsNew]; [exact CL|exact TU|discriminate])).
  - inversion H; subst. rewrite ring_push_eq. apply OpGet. exact CL.
  - inversion H; subst. rewrite ring_push_eq. apply OpGetMut. exact CL.
  - assert (E : exists r, st' = st /\ o = mk_out PtFinish [] (RTtl r)).
    { destruct (st_get _ _ _ _); [destruct (st_expiration _ _); [destruct (t_get_ttl _ _)|]|];
        inversion H; subst; eauto. }
    destruct E as (r & -> & ->). apply OpGetTtl. exact H.
  - destruct (st_try_remove _ _ _) as [sto prev] eqn:TR. inversion H; subst. apply OpRemove; assumption.
  - inversion H; subst. apply OpWait. exact CL.
  - inversion H; subst. apply OpClear. exact CL.
  - inversion H; subst. apply OpClose. exact CL.
  - inversion H; subst. apply OpMaxCost.
  - inversion H; subst. apply OpUpdateMaxCost.
  - inversion H; subst. apply OpLen.
Qed.

Definition miss_res (w : option N) : res := match w with Some _ => RGetMut None | None => RGet None end.

Inductive client_rule (c : cfg) (st : cstate) (a : N) : cstate -> out -> Prop :=
| ClInsSent it k : client_of st a = KInsSend it k -> buf_room c st ->
    client_rule c st a (set_client (upd_buf st (s_buf st ++ [it])) a KIdle) (mk_out PtFinish [] (RBool true))
| ClInsUpdateLost it k : client_of st a = KInsSend it k -> ~ buf_room c st -> is_update it = true ->
    client_rule c st a (set_client st a KIdle) (mk_out PtFinish [] (RBool true))
| ClInsDropped it k : client_of st a = KInsSend it k -> ~ buf_room c st -> is_update it = false ->
    client_rule c st a (set_client (upd_mets st (emit_mets c (s_mets st) [(MDropSets, 1)])) a KIdle)
      (mk_out PtFinish [] (RBool false))
| ClGetMiss k cf w : client_of st a = KGetStore k cf w -> st_get (s_now st) (s_store st) k cf = None ->
    client_rule c st a (set_client (upd_mets st (emit_mets c (s_mets st) [(MMiss, 1)])) a KIdle)
      (mk_out PtFinish [] (miss_res w))
| ClGetMutHit k cf v e : client_of st a = KGetStore k cf (Some v) ->
    st_get (s_now st) (s_store st) k cf = Some e ->
    client_rule c st a
      (set_client (upd_store (upd_mets st (emit_mets c (s_mets st) [(MHit, 1)])) (st_write (s_store st) k v)) a KIdle)
      (mk_out PtFinish [] (RGetMut (Some (e_val e))))
| ClGetHit k cf e d : client_of st a = KGetStore k cf None ->
    st_get (s_now st) (s_store st) k cf = Some e -> t_get_ttl (s_now st) (e_exp e) = Some d ->
    client_rule c st a (set_client (upd_mets st (emit_mets c (s_mets st) [(MHit, 1)])) a KIdle)
      (mk_out PtFinish [] (RGet (Some (e_val e, d))))
| ClRemSent k cf : client_of st a = KRemSend k cf -> buf_room c st ->
    client_rule c st a (set_client (upd_buf st (s_buf st ++ [IDelete k cf])) a KIdle) (mk_out PtFinish [] (RUnit true))
| ClRemExited k cf : client_of st a = KRemSend k cf -> s_pc st = PExited ->
    client_rule c st a (set_client st a KIdle) (mk_out PtFinish [] (RUnit true))
| ClWaitSent : client_of st a = KWaitStart -> buf_room c st ->
    client_rule c st a
      (set_client (upd_buf (upd_next_id st (s_next_id st + 1)) (s_buf st ++ [IWait (s_next_id st)])) a
                  (KWaitAfterSend (s_next_id st)))
      (mk_out PtWaitAfterSend [] RNone)
| ClWaitFull : client_of st a = KWaitStart -> ~ buf_room c st ->
    client_rule c st a (set_client (upd_next_id st (s_next_id st + 1)) a KIdle) (mk_out PtFinish [] (RUnit false))
| ClClearExited : client_of st a = KClearStart -> s_pc st = PExited ->
    client_rule c st a (set_client st a KIdle) (mk_out PtFinish [] (RUnit false))
| ClClearSent : client_of st a = KClearStart -> s_pc st <> PExited ->
    client_rule c st a
      (set_client (upd_clear_sigs (upd_next_id st (s_next_id st + 1)) (s_clear_sigs st ++ [s_next_id st])) a
                  (KClearBlock (s_next_id st) false))
      (mk_out PtClearBeforeBlock [] RNone)
| ClWaitClosed id : client_of st a = KWaitAfterSend id -> s_closed st = true ->
    client_rule c st a (set_client st a KIdle) (mk_out PtFinish [] (RUnit true))
| ClWaitBlocks id : client_of st a = KWaitAfterSend id -> s_closed st = false ->
    client_rule c st a (set_client st a (KWaitBlock id)) (mk_out PtWaitBeforeBlock [] RNone)
| ClWaitReleased id : client_of st a = KWaitBlock id -> mem_N id (s_done st) = true ->
    client_rule c st a (set_client st a KIdle) (mk_out PtFinish [] (RUnit true))
| ClClearReleased id : client_of st a = KClearBlock id false -> mem_N id (s_done st) = true ->
    client_rule c st a (set_client st a KIdle) (mk_out PtFinish [] (RUnit true))
| ClCloseCleared id : client_of st a = KClearBlock id true -> mem_N id (s_done st) = true ->
    client_rule c st a (set_client st a KCloseBeforeStop) (mk_out PtCloseBeforeStop [] RNone)
| ClCloseExited : client_of st a = KCloseAfterFlag -> s_pc st = PExited ->
    client_rule c st a (set_client st a KIdle) (mk_out PtFinish [] (RUnit false))
| ClCloseClears : client_of st a = KCloseAfterFlag -> s_pc st <> PExited ->
    client_rule c st a
      (set_client (upd_clear_sigs (upd_next_id st (s_next_id st + 1)) (s_clear_sigs st ++ [s_next_id st])) a
                  (KClearBlock (s_next_id st) true))
      (mk_out PtClearBeforeBlock [] RNone)
| ClStopExited : client_of st a = KCloseBeforeStop -> s_pc st = PExited ->
    client_rule c st a (set_client st a KIdle) (mk_out PtFinish [] (RUnit false))
| ClStopBuffered : client_of st a = KCloseBeforeStop -> s_pc st <> PExited -> s_stop_msgs st < stop_cap c ->
    client_rule c st a (set_client (upd_stop_msgs st (s_stop_msgs st + 1)) a KCloseBeforePolicy)
      (mk_out PtCloseBeforePolicy [] RNone)
| ClStopOffered : client_of st a = KCloseBeforeStop -> s_pc st <> PExited -> stop_cap c <= s_stop_msgs st ->
    client_rule c st a (set_client st a KCloseStopOffered) (mk_out PtBlocked [] RNone)
| ClStopTaken : client_of st a = KCloseStopTaken ->
    client_rule c st a (set_client st a KCloseBeforePolicy) (mk_out PtCloseBeforePolicy [] RNone)
| ClPolAlreadyClosed : client_of st a = KCloseBeforePolicy -> s_pol_closed st = true ->
    client_rule c st a (set_client st a KIdle) (mk_out PtFinish [] (RUnit true))
| ClPolClose : client_of st a = KCloseBeforePolicy -> s_pol_closed st = false ->
    client_rule c st a (set_client st a KPolCloseBeforeStop) (mk_out PtPolCloseBeforeStop [] RNone)
| ClPolStopExited : client_of st a = KPolCloseBeforeStop -> s_wpc st = WExited ->
    client_rule c st a (set_client st a KIdle) (mk_out PtFinish [] (RUnit false))
| ClPolStopBuffered : client_of st a = KPolCloseBeforeStop -> s_wpc st = WIdle -> s_pol_stop_msgs st < stop_cap c ->
    client_rule c st a (set_client (upd_pol_stop_msgs st (s_pol_stop_msgs st + 1)) a KPolCloseAfterStop)
      (mk_out PtPolCloseAfterStop [] RNone)
| ClPolStopOffered : client_of st a = KPolCloseBeforeStop -> s_wpc st = WIdle -> stop_cap c <= s_pol_stop_msgs st ->
    client_rule c st a (set_client st a KPolCloseStopOffered) (mk_out PtBlocked [] RNone)
| ClPolStopTaken : client_of st a = KPolCloseStopTaken ->
    client_rule c st a (set_client st a KPolCloseAfterStop) (mk_out PtPolCloseAfterStop [] RNone)
| ClPolClosed : client_of st a = KPolCloseAfterStop ->
    client_rule c st a (set_client (upd_pol_closed st true) a KIdle) (mk_out PtFinish [] (RUnit true)).

Theorem continue_client_rule c st a st' o : continue_client c st a = StepOk st' o -> client_rule c st a st' o.
Proof.
  unfold continue_client. destruct (client_of st a) eqn:K; intros H; try discriminate.
  - destruct (buf_send c st it) as [st1|] eqn:E.
    + apply buf_send_some in E. destruct E as (R & ->). inversion H; subst. eapply ClInsSent; eassumption.
    + apply buf_send_none in E. destruct (is_update it) eqn:U; inversion H; subst;
        [eapply ClInsUpdateLost|rewrite emit_eq; eapply ClInsDropped]; eassumption.
  - rewrite !emit_eq in H. destruct (st_get _ _ _ _) as [e|] eqn:G.
    + destruct write as [v|]; [inversion H; subst; eapply ClGetMutHit; eassumption|].
      destruct (t_get_ttl _ _) eqn:T; inversion H; subst. eapply ClGetHit; eassumption.
    + inversion H; subst. eapply ClGetMiss; eassumption.
  - destruct (buf_send c st (IDelete k c0)) as [st1|] eqn:E.
    + apply buf_send_some in E. destruct E as (R & ->). inversion H; subst. eapply ClRemSent; eassumption.
    + destruct (s_pc st) eqn:PC; try discriminate. inversion H; subst. eapply ClRemExited; eassumption.
  - cbn [fresh_id] in H. destruct (buf_send _ _ _) as [st2|] eqn:E.
    + apply buf_send_some in E. destruct E as (R & ->). inversion H; subst. apply ClWaitSent; assumption.
    + inversion H; subst. apply ClWaitFull; [exact K|exact (buf_send_none _ _ _ E)].
  - destruct (s_pc st) eqn:PC; inversion H; subst; sproj;
      first [apply ClClearExited; assumption | apply ClClearSent; [exact K|congruence]].
  - destruct (s_closed st) eqn:CL; inversion H; subst; [eapply ClWaitClosed|eapply ClWaitBlocks]; eassumption.
  - destruct (mem_N id (s_done st)) eqn:D; [|discriminate]. inversion H; subst. eapply ClWaitReleased; eassumption.
  - destruct (mem_N id (s_done st)) eqn:D; [|discriminate].
    destruct closing; inversion H; subst; [eapply ClCloseCleared|eapply ClClearReleased]; eassumption.
  - destruct (s_pc st) eqn:PC; inversion H; subst; sproj;
      first [apply ClCloseExited; assumption | apply ClCloseClears; [exact K|congruence]].
  - destruct (N.ltb_spec (s_stop_msgs st) (stop_cap c)) as [L|L];
      destruct (s_pc st) eqn:PC; inversion H; subst;
      first [apply ClStopExited; assumption | apply ClStopBuffered; [exact K|congruence|assumption]
            | apply ClStopOffered; [exact K|congruence|assumption]].
  - inversion H; subst. apply ClStopTaken. exact K.
  - destruct (s_pol_closed st) eqn:PC; inversion H; subst; [apply ClPolAlreadyClosed|apply ClPolClose]; assumption.
  - destruct (s_wpc st) eqn:W; [destruct (N.ltb_spec (s_pol_stop_msgs st) (stop_cap c)) as [L|L]|]; inversion H; subst;
      [apply ClPolStopBuffered|apply ClPolStopOffered|apply ClPolStopExited]; assumption.
  - inversion H; subst. apply ClPolStopTaken. exact K.
  - inversion H; subst. apply ClPolClosed. exact K.
Qed.

(* the cleanup iteration after one key: over (the collected on_evict callbacks fire), or on to a key
   of `rest` named by the implementation *)
Inductive tick_rule (c : cfg) (st : cstate) (h : hint) (acc : list cbk) : amap N -> cstate -> out -> Prop :=
| TkDone hs ss : prepare_evicts c st acc = Some (upd_start (upd_hist st hs) ss) ->
    tick_rule c st h acc [] (upd_pc (upd_start (upd_hist st hs) ss) PIdle) (mk_out PtProcLoop acc RNone)
| TkNext rest k cf : rest <> [] -> h_tick_key h = Some k -> aget k rest = Some cf ->
    tick_rule c st h acc rest (upd_pc st (PTickKey k cf (adel k rest) acc)) (mk_out PtProcTickKey [] RNone).

Lemma tick_next_rule c st h rest acc st' o :
  tick_next c st h rest acc = StepOk st' o -> tick_rule c st h acc rest st' o.
Proof.
  unfold tick_next. destruct rest as [|p rest].
  - destruct (prepare_evicts c st acc) as [st1|] eqn:E; [|discriminate].
    pose proof (prepare_evicts_eq _ _ _ _ E) as Q. rewrite Q in E |- *.
    intros H; inversion H; subst. apply TkDone. exact E.
  - destruct (h_tick_key h) as [k|] eqn:HK; [|discriminate]. destruct (aget k (p :: rest)) as [cf|] eqn:A; [|discriminate].
    intros H; inversion H; subst. apply TkNext; [discriminate|assumption..].
Qed.

(* taking the stop request: a buffered message (async) or the first closer waiting in the rendezvous *)
Inductive stop_taken (st : cstate) : cstate -> Prop :=
| StBuffered : 0 < s_stop_msgs st -> stop_taken st (upd_stop_msgs st (s_stop_msgs st - 1))
| StOffered a : s_stop_msgs st = 0 -> find_offer false (s_clients st) = Some a -> client_of st a = KCloseStopOffered ->
    stop_taken st (set_client st a KCloseStopTaken).

Definition evict_cb (k : N) (prev : option entry) (cost : Z) : list cbk :=
  match prev with Some e => [CbEvict k (e_conflict e) (e_val e) cost] | None => [] end.

Inductive proc_rule (c : cfg) (st : cstate) (h : hint) : cstate -> out -> Prop :=
| PrNew k cf cost v exp r s' victims added l mets : s_pc st = PIdle -> h_arm h = Some ArmItem ->
    s_buf st = INew k cf cost v exp :: r ->
    pol_add (est_of (s_tlfu st)) (h_oracle h) (s_slfu st) k (internal_cost c cost) = AddDone s' victims added l mets ->
    proc_rule c st h
      (upd_pc (upd_mets (upd_slfu (upd_buf st r) s') (emit_mets c (s_mets st) mets))
              (PNewAfterAdd k cf v exp (internal_cost c cost) (match victims with Some l => l | None => [] end) added))
      (mk_out PtProcNewAfterAdd [] RNone)
| PrUpdate k cost ext r : s_pc st = PIdle -> h_arm h = Some ArmItem -> s_buf st = IUpdate k cost ext :: r ->
    proc_rule c st h
      (upd_mets (upd_slfu (upd_buf st r) (fst (fst (sl_update (s_slfu st) k (internal_cost c cost + ext)%Z))))
                (emit_mets c (s_mets st) (snd (sl_update (s_slfu st) k (internal_cost c cost + ext)%Z))))
      (mk_out PtProcLoop [] RNone)
| PrDelete k cf r : s_pc st = PIdle -> h_arm h = Some ArmItem -> s_buf st = IDelete k cf :: r ->
    proc_rule c st h
      (upd_pc (upd_mets (upd_slfu (upd_buf st r) (fst (pol_remove (s_slfu st) k)))
                        (emit_mets c (s_mets st) (snd (pol_remove (s_slfu st) k))))
              (PDelAfterPolicy k cf))
      (mk_out PtProcDelAfterPolicy [] RNone)
| PrWait id r : s_pc st = PIdle -> h_arm h = Some ArmItem -> s_buf st = IWait id :: r ->
    proc_rule c st h (upd_done (upd_buf st r) (id :: s_done st)) (mk_out PtProcLoop [] RNone)
| PrClear sig r : s_pc st = PIdle -> h_arm h = Some ArmClear -> s_clear_sigs st = sig :: r ->
    proc_rule c st h
      (upd_pc (upd_done (upd_buf (upd_clear_sigs st r) []) (fst (drain_items (s_buf st) (s_done st) [])))
              (PClearAfterDrain sig))
      (mk_out PtProcClearAfterDrain (snd (drain_items (s_buf st) (s_done st) [])) RNone)
| PrTickIdle em' : s_pc st = PIdle -> h_arm h = Some ArmTick -> s_ticks st <> 0 ->
    em_cleanup (st_em (s_store st)) (s_now st) = (em', None) ->
    proc_rule c st h
      (upd_store (upd_ticks st (s_ticks st - 1)) {| st_map := st_map (s_store st); st_em := em' |})
      (mk_out PtProcLoop [] RNone)
| PrTickDue em' m st' o : s_pc st = PIdle -> h_arm h = Some ArmTick -> s_ticks st <> 0 ->
    em_cleanup (st_em (s_store st)) (s_now st) = (em', Some m) ->
    tick_rule c (upd_store (upd_ticks st (s_ticks st - 1)) {| st_map := st_map (s_store st); st_em := em' |}) h [] m st' o ->
    proc_rule c st h st' o
| PrStop st1 : s_pc st = PIdle -> h_arm h = Some ArmStop -> stop_taken st st1 ->
    proc_rule c st h
      (upd_pc (upd_clear_sigs (upd_done (upd_buf st1 [])
                                 (s_clear_sigs st ++ fst (drain_items (s_buf st) (s_done st) []))) []) PExited)
      (mk_out PtProcExit (snd (drain_items (s_buf st) (s_done st) [])) RNone)
| PrAdmit k cf v exp cost victims ss : s_pc st = PNewAfterAdd k cf v exp cost victims true ->
    track_admission c (upd_mets (upd_store st (st_try_insert (c_validator c) (s_store st) k v cf exp))
                                (emit_mets c (s_mets st) [(MKeyAdd, 1)])) k
      = Some (upd_start (upd_mets (upd_store st (st_try_insert (c_validator c) (s_store st) k v cf exp))
                                  (emit_mets c (s_mets st) [(MKeyAdd, 1)])) ss) ->
    proc_rule c st h
      (upd_pc (upd_start (upd_mets (upd_store st (st_try_insert (c_validator c) (s_store st) k v cf exp))
                                   (emit_mets c (s_mets st) [(MKeyAdd, 1)])) ss) (PNewAfterStore victims))
      (mk_out PtProcNewAfterStore [] RNone)
| PrReject k cf v exp cost victims : s_pc st = PNewAfterAdd k cf v exp cost victims false ->
    proc_rule c st h (upd_pc st (PNewAfterStore victims)) (mk_out PtProcNewAfterStore [CbReject k cf v cost] RNone)
| PrVictimsDone : s_pc st = PNewAfterStore [] ->
    proc_rule c st h (upd_pc st PIdle) (mk_out PtProcLoop [] RNone)
| PrVictimsNext v r : s_pc st = PNewAfterStore (v :: r) ->
    proc_rule c st h (upd_pc st (PNewVictim v r)) (mk_out PtProcNewVictim [] RNone)
| PrVictimLast vk vcost sto prev hs ss : s_pc st = PNewVictim (vk, vcost) [] ->
    st_try_remove (s_store st) vk 0 = (sto, prev) ->
    prepare_evicts c (upd_store st sto) (evict_cb vk prev vcost) = Some (upd_start (upd_hist (upd_store st sto) hs) ss) ->
    proc_rule c st h (upd_pc (upd_start (upd_hist (upd_store st sto) hs) ss) PIdle)
      (mk_out PtProcLoop (evict_cb vk prev vcost) RNone)
| PrVictimNext vk vcost v r sto prev hs ss : s_pc st = PNewVictim (vk, vcost) (v :: r) ->
    st_try_remove (s_store st) vk 0 = (sto, prev) ->
    prepare_evicts c (upd_store st sto) (evict_cb vk prev vcost) = Some (upd_start (upd_hist (upd_store st sto) hs) ss) ->
    proc_rule c st h (upd_pc (upd_start (upd_hist (upd_store st sto) hs) ss) (PNewVictim v r))
      (mk_out PtProcNewVictim (evict_cb vk prev vcost) RNone)
| PrDeleted k cf sto prev : s_pc st = PDelAfterPolicy k cf -> st_try_remove (s_store st) k cf = (sto, prev) ->
    proc_rule c st h (upd_pc (upd_store st sto) PIdle) (mk_out PtProcLoop (exit_cb prev) RNone)
| PrClearPolicy sig : s_pc st = PClearAfterDrain sig ->
    proc_rule c st h
      (upd_pc (upd_tlfu (upd_slfu st (sl_clear (s_slfu st))) (tl_clear (s_tlfu st))) (PClearAfterPolicy sig))
      (mk_out PtProcClearAfterPolicy [] RNone)
| PrClearStore sig : s_pc st = PClearAfterPolicy sig ->
    proc_rule c st h (upd_pc (upd_store st st_empty) (PClearAfterStore sig)) (mk_out PtProcClearAfterStore [] RNone)
| PrClearAck sig : s_pc st = PClearAfterStore sig ->
    proc_rule c st h
      (upd_pc (upd_done (upd_hist (upd_mets st (if c_metrics c then metrics_zero else s_mets st))
                                  (if c_metrics c then hist_clear else s_hist st)) (sig :: s_done st)) PIdle)
      (mk_out PtProcLoop [] RNone)
| PrTickExpired k cf rest acc t : s_pc st = PTickKey k cf rest acc -> st_expiration (s_store st) k = Some t ->
    negb (t_is_zero t) && t_is_expired (s_now st) t = true ->
    proc_rule c st h
      (upd_pc (upd_mets (upd_slfu st (fst (pol_remove (s_slfu st) k))) (emit_mets c (s_mets st) (snd (pol_remove (s_slfu st) k))))
              (PTickAfterPolicy k cf (match aget k (sl_kc (s_slfu st)) with Some x => x | None => (-1)%Z end) rest acc))
      (mk_out PtProcTickAfterPolicy [] RNone)
| PrTickSkip k cf rest acc st' o : s_pc st = PTickKey k cf rest acc ->
    (forall t, st_expiration (s_store st) k = Some t -> negb (t_is_zero t) && t_is_expired (s_now st) t = false) ->
    tick_rule c st h acc rest st' o -> proc_rule c st h st' o
| PrTickRemoved k cf cost rest acc sto prev st' o : s_pc st = PTickAfterPolicy k cf cost rest acc ->
    st_try_remove (s_store st) k cf = (sto, prev) ->
    tick_rule c (upd_store st sto) h (acc ++ evict_cb k prev cost) rest st' o -> proc_rule c st h st' o.

(* the hint that names the select! arm and nothing else *)
Definition arm_hint (a : arm) : hint := {| h_arm := Some a; h_oracle := []; h_tick_key := None |}.

(* the `take` expression of the stop arm of proc_step, as it stands there *)
Lemma stop_take_rule st st1 :
  (if 0 <? s_stop_msgs st then Some (upd_stop_msgs st (s_stop_msgs st - 1))
   else match find_offer false (s_clients st) with
        | Some a => match client_of st a with KCloseStopOffered => Some (set_client st a KCloseStopTaken) | _ => None end
        | None => None
        end) = Some st1 -> stop_taken st st1.
Proof.
  destruct (N.ltb_spec 0 (s_stop_msgs st)) as [L|L]; [intros H; inversion H; apply StBuffered; exact L|].
  destruct (find_offer false (s_clients st)) as [a|] eqn:F; [|discriminate].
  destruct (client_of st a) eqn:K; try discriminate. intros H; inversion H. eapply StOffered; [|eassumption..].
  apply N.le_0_r. exact L.
Qed.

Theorem proc_step_rule c st h st' o : proc_step c st h = StepOk st' o -> proc_rule c st h st' o.
Proof.
  unfold proc_step. destruct (s_pc st) eqn:PC; intros H; try discriminate.
  - destruct (h_arm h) as [[| | |]|] eqn:HA; try discriminate.
    + destruct (s_buf st) as [|it r] eqn:B; [discriminate|]. unfold proc_handle_item in H.
      destruct it; sproj.
      * destruct (pol_add _ _ _ _ _) eqn:PA; try discriminate. rewrite emit_eq in H. inversion H; subst.
        eapply PrNew; eassumption.
      * rewrite !let_pair, emit_eq in H. inversion H; subst. eapply PrUpdate; eassumption.
      * rewrite let_pair, emit_eq in H. inversion H; subst. eapply PrDelete; eassumption.
      * inversion H; subst. eapply PrWait; eassumption.
    + destruct (s_clear_sigs st) as [|sig r] eqn:CS; [discriminate|]. rewrite drain_buffer_eq in H. sproj.
      inversion H; subst. eapply PrClear; eassumption.
    + destruct (N.eqb_spec (s_ticks st) 0); [discriminate|]. sproj.
      destruct (em_cleanup _ _) as [em' [m|]] eqn:EC.
      * eapply PrTickDue; try eassumption. apply tick_next_rule. exact H.
      * inversion H; subst. eapply PrTickIdle; eassumption.
    + match type of H with context [match ?t with Some _ => _ | None => StepIllegal 24 end] => destruct t as [st1|] eqn:T end;
        [|discriminate].
      apply stop_take_rule in T. rewrite drain_buffer_eq in H. inversion H; subst.
      destruct T; sproj; eapply PrStop; try eassumption; constructor; assumption.
  - destruct added.
    + rewrite emit_eq in H. sproj. destruct (track_admission _ _ _) as [st2|] eqn:TA; [|discriminate].
      pose proof (track_admission_eq _ _ _ _ TA) as Q. rewrite Q in TA, H.
      inversion H; subst. eapply PrAdmit; eassumption.
    + inversion H; subst. eapply PrReject; eassumption.
  - destruct victims; inversion H; subst; [apply PrVictimsDone|apply PrVictimsNext]; exact PC.
  - destruct v as [vk vcost]. destruct (st_try_remove _ _ _) as [sto prev] eqn:TR.
    change (match prev with Some e => [CbEvict vk (e_conflict e) (e_val e) vcost] | None => [] end)
      with (evict_cb vk prev vcost) in H.
    destruct (prepare_evicts _ _ _) as [st0|] eqn:PE; [|discriminate].
    pose proof (prepare_evicts_eq _ _ _ _ PE) as Q. rewrite Q in PE, H. clear Q.
    destruct rest; inversion H; subst; [eapply PrVictimLast|eapply PrVictimNext]; eassumption.
  - destruct (st_try_remove _ _ _) as [sto prev] eqn:TR. inversion H; subst. eapply PrDeleted; eassumption.
  - inversion H; subst. apply PrClearPolicy. exact PC.
  - inversion H; subst. apply PrClearStore. exact PC.
  - replace st' with (upd_pc (upd_done (upd_hist (upd_mets st (if c_metrics c then metrics_zero else s_mets st))
                                  (if c_metrics c then hist_clear else s_hist st)) (sig :: s_done st)) PIdle)
      by (destruct (c_metrics c); inversion H; subst; destruct st; reflexivity).
    replace o with (mk_out PtProcLoop [] RNone) by (inversion H; reflexivity). apply PrClearAck. exact PC.
  - destruct (st_expiration _ _) as [t|] eqn:SE.
    + destruct (negb (t_is_zero t) && t_is_expired (s_now st) t) eqn:X.
      * rewrite let_pair, emit_eq in H. sproj. inversion H; subst. eapply PrTickExpired; eassumption.
      * eapply PrTickSkip; [exact PC| |apply tick_next_rule; exact H]. intros t0 E; rewrite SE in E; injection E as <-; exact X.
    + eapply PrTickSkip; [exact PC|rewrite SE; discriminate|apply tick_next_rule; exact H].
  - destruct (st_try_remove _ _ _) as [sto prev] eqn:TR. eapply PrTickRemoved; [exact PC|exact TR|].
    apply tick_next_rule. destruct prev; [exact H|]. rewrite app_nil_r. exact H.
Qed.

Inductive worker_rule (c : cfg) (st : cstate) (h : hint) : cstate -> out -> Prop :=
| WkBatch batch r t' : s_wpc st = WIdle -> h_arm h = Some ArmItem -> s_pqueue st = batch :: r ->
    tl_increments (s_tlfu st) batch = Some t' ->
    worker_rule c st h (upd_tlfu (upd_pqueue st r) t') (mk_out PtPolLoop [] RNone)
| WkStopBuffered : s_wpc st = WIdle -> h_arm h = Some ArmStop -> 0 < s_pol_stop_msgs st ->
    worker_rule c st h (upd_wpc (upd_pol_stop_msgs st (s_pol_stop_msgs st - 1)) WExited) (mk_out PtPolExit [] RNone)
| WkStopOffered a : s_wpc st = WIdle -> h_arm h = Some ArmStop -> s_pol_stop_msgs st = 0 ->
    find_offer true (s_clients st) = Some a -> client_of st a = KPolCloseStopOffered ->
    worker_rule c st h (upd_wpc (set_client st a KPolCloseStopTaken) WExited) (mk_out PtPolExit [] RNone).

Theorem worker_step_rule c st h st' o : worker_step c st h = StepOk st' o -> worker_rule c st h st' o.
Proof.
  unfold worker_step. destruct (s_wpc st) eqn:W; [|discriminate].
  destruct (h_arm h) as [[| | |]|] eqn:HA; try discriminate.
  - destruct (s_pqueue st) as [|batch r] eqn:Q; [discriminate|]. destruct (tl_increments _ _) eqn:T; [|discriminate].
    intros H; inversion H; subst. eapply WkBatch; eassumption.
  - destruct (N.ltb_spec 0 (s_pol_stop_msgs st)) as [L|L]; [intros H; inversion H; subst; apply WkStopBuffered; assumption|].
    destruct (find_offer true (s_clients st)) as [a|] eqn:F; [|discriminate].
    destruct (client_of st a) eqn:K; try discriminate. intros H; inversion H; subst.
    eapply WkStopOffered; try eassumption. apply N.le_0_r. exact L.
Qed.

Inductive step_rule (c : cfg) (st : cstate) : label -> cstate -> out -> Prop :=
| StepOp a op st' o : client_of st a = KIdle -> op_rule c st a op st' o -> step_rule c st (LOp a op) st' o
| StepClient a st' o : client_rule c st a st' o -> step_rule c st (LClient a) st' o
| StepProc h st' o : proc_rule c st h st' o -> step_rule c st (LProc h) st' o
| StepWorker h st' o : worker_rule c st h st' o -> step_rule c st (LWorker h) st' o
| StepAdvance dt : step_rule c st (LAdvance dt) (upd_now st (s_now st + dt)) (mk_out PtFinish [] RNone)
| StepTick : step_rule c st LTick (upd_ticks st (s_ticks st + 1)) (mk_out PtFinish [] RNone).

Theorem cstep_rule c st l st' o : cstep c st l = StepOk st' o -> step_rule c st l st' o.
Proof.
  destruct l as [a op|a|h|h|dt|]; cbn [cstep]; intros H.
  - destruct (client_of st a) eqn:K; try discriminate. apply StepOp; [exact K|apply start_op_rule; exact H].
  - apply StepClient, continue_client_rule, H.
  - apply StepProc, proc_step_rule, H.
  - apply StepWorker, worker_step_rule, H.
  - inversion H; subst. apply StepAdvance.
  - inversion H; subst. apply StepTick.
Qed.

(* one goal per rule of every actor, with the cleanup's two continuations and the two ways of taking
   the stop request opened as well *)
Ltac step_cases H :=
  apply cstep_rule in H;
  let R := fresh "R" in
  destruct H as [? ? ? ? ? R|? ? ? R|? ? ? R|? ? ? R|?|];
  [ destruct R | destruct R
  | destruct R;
    repeat match goal with
           | T : tick_rule _ _ _ _ _ _ _ |- _ => destruct T
           | T : stop_taken _ _ |- _ => destruct T
           end
  | destruct R | | ];
  sproj.

(* [client_of] reads the client map only: peel the updaters off its argument *)
Ltac clients :=
  repeat match goal with
  | |- context [client_of (set_client ?s ?a ?k) ?b] => rewrite (client_of_set s a b k)
  | |- context [client_of (?f ?s ?x) ?b] => change (client_of (f s x) b) with (client_of s b)
  end.

(* rewrite with the rule's premises about the pre-state's program counters and continuations *)
Ltac known :=
  repeat match goal with
  | E : s_pc ?s = _ |- context [s_pc ?s] => rewrite E
  | E : s_wpc ?s = _ |- context [s_wpc ?s] => rewrite E
  | E : client_of ?s ?a = _ |- context [client_of ?s ?a] => rewrite E
  end.

(* an invariant of the steps whose labels satisfy L holds after a run over such labels *)
Lemma crun_ind_inv c (L : label -> Prop) (P : cstate -> Prop) :
  (forall st l st' o, P st -> L l -> cstep c st l = StepOk st' o -> P st') ->
  forall ls st st' os, P st -> Forall L ls -> crun c st ls = Some (st', os) -> P st'.
Proof.
  intros S. induction ls as [|l ls IH]; intros st st' os I F; cbn [crun].
  - intros [= <- _]. exact I.
  - inversion F as [|? ? Hl Hr]; subst. destruct (cstep c st l) as [st1 o| | |] eqn:E; try discriminate.
    destruct (crun c st1 ls) as [[st2 os1]|] eqn:R; [|discriminate]. intros [= <- _].
    eapply IH; [eapply S; eassumption|exact Hr|exact R].
Qed.
