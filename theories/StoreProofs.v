(* StoreProofs.v — TTL arithmetic (Ttl.v) and store-level facts (Store.v): C03, C05, C09, C18; and
   `store_wr`, the one description of how the store operations write the store, through which the
   cache-level invariants of the store go. *)
From StrettoModel Require Import BaseProofs Store.
From Coq Require Import ZifyBool ZifyN.
Open Scope N_scope.

(* a clock that went backwards expires nothing *)
Lemma is_expired_iff now t :
  t_is_expired now t = true <-> t_created t <= now /\ t_created t + t_d t <= now.
Proof. unfold t_is_expired. destruct (now <? t_created t) eqn:E; lia. Qed.

Lemma expired_iff now t : t_created t <= now ->
  t_is_expired now t = true <-> t_created t + t_d t <= now.
Proof. intros H. rewrite is_expired_iff. lia. Qed.

Lemma entry_live_iff now e :
  entry_live now e = true <-> t_d (e_exp e) = 0 \/ now < t_created (e_exp e) + t_d (e_exp e).
Proof.
  unfold entry_live, t_is_zero. rewrite negb_true_iff, andb_false_iff, negb_false_iff, N.eqb_eq.
  rewrite <- not_true_iff_false, is_expired_iff. lia.
Qed.

Lemma zero_ttl_reports_no_expiry now t : t_d t = 0 -> t_get_ttl now t = Some TtlInf.
Proof. intros H. unfold t_get_ttl, t_is_zero. rewrite H. reflexivity. Qed.

(* Time::get_ttl fails only when the clock is behind the creation time *)
Lemma get_ttl_total now t : t_created t <= now -> exists d, t_get_ttl now t = Some d.
Proof.
  intros H. unfold t_get_ttl. destruct (t_is_zero t); [eauto|].
  destruct (N.ltb_spec now (t_created t)); [lia|]. destruct (_ <=? _); eauto.
Qed.

(* C03: before the deadline get_ttl reports exactly the remaining time: at most d, decreasing *)
Lemma ttl_reports_remaining now t : t_created t <= now -> now < t_created t + t_d t ->
  t_get_ttl now t = Some (TtlNs (t_created t + t_d t - now)) /\ t_created t + t_d t - now <= t_d t.
Proof.
  intros Hc Hn. unfold t_get_ttl, t_is_zero.
  destruct (t_d t =? 0) eqn:Z; [lia|]. destruct (now <? t_created t) eqn:E; [lia|].
  destruct (t_d t <=? now - t_created t) eqn:F; [lia|]. split; [f_equal; f_equal; lia|lia].
Qed.

Lemma ttl_antitone now now' t : t_created t <= now -> now <= now' -> now' < t_created t + t_d t ->
  forall r r', t_get_ttl now t = Some (TtlNs r) -> t_get_ttl now' t = Some (TtlNs r') -> r' <= r.
Proof.
  intros Hc Hle Hn r r' H1 H2.
  destruct (ttl_reports_remaining now t Hc ltac:(lia)) as (E1 & _).
  destruct (ttl_reports_remaining now' t ltac:(lia) Hn) as (E2 & _).
  rewrite E1 in H1. rewrite E2 in H2. inversion H1; inversion H2; subst. lia.
Qed.

(* C05: an entry is filed in the second after its deadline's second: the bucket lies strictly after
   the deadline and at most one bucket width later *)
Theorem bucket_bounds t :
  t_created t + t_d t < storage_bucket t * NS /\ storage_bucket t * NS <= t_created t + t_d t + NS.
Proof. unfold storage_bucket, t_unix, NS. lia. Qed.

(* C05: a tick sweeps a bucket iff the bucket's second has begun; hence nothing swept is unexpired, and
   an entry is swept by the first tick at or after deadline + 1 s *)
Theorem due_iff now t : storage_bucket t <=? cleanup_bucket now = true <-> storage_bucket t * NS <= now - now mod NS.
Proof.
  rewrite N.leb_le. unfold cleanup_bucket. generalize (storage_bucket t). intros b.
  rewrite (N.mod_eq now NS) by discriminate. unfold NS. lia.
Qed.

Theorem due_implies_elapsed now t : storage_bucket t <= cleanup_bucket now -> t_created t + t_d t < now.
Proof. unfold cleanup_bucket, storage_bucket, t_unix, NS. lia. Qed.

Theorem due_within_one_bucket now t : t_created t + t_d t + NS <= now -> storage_bucket t <= cleanup_bucket now.
Proof. unfold cleanup_bucket, storage_bucket, t_unix, NS. lia. Qed.

(* C03: nothing is served once its TTL has elapsed *)
Theorem expired_is_invisible now s k c e :
  aget k (st_map s) = Some e -> 0 < t_d (e_exp e) -> t_created (e_exp e) + t_d (e_exp e) <= now ->
  st_get now s k c = None.
Proof.
  intros He Hd Hn. unfold st_get. rewrite He.
  destruct (entry_live now e) eqn:L; [apply entry_live_iff in L; lia|]. rewrite andb_false_r. reflexivity.
Qed.

Lemma live_entry_is_served now s k c e :
  aget k (st_map s) = Some e -> entry_live now e = true -> conflict_ok c e = true -> st_get now s k c = Some e.
Proof. intros He L Hc. unfold st_get. rewrite He, Hc, L. reflexivity. Qed.

(* C03: an entry without TTL never becomes invisible because of time *)
Theorem no_ttl_never_times_out now s k c e :
  aget k (st_map s) = Some e -> t_d (e_exp e) = 0 -> conflict_ok c e = true -> st_get now s k c = Some e.
Proof. intros He Hd. apply live_entry_is_served; [exact He|apply entry_live_iff; auto]. Qed.

(* C03: before the deadline the entry is served *)
Theorem live_is_visible now s k c e :
  aget k (st_map s) = Some e -> now < t_created (e_exp e) + t_d (e_exp e) ->
  conflict_ok c e = true -> st_get now s k c = Some e.
Proof. intros He Hn. apply live_entry_is_served; [exact He|apply entry_live_iff; auto]. Qed.

(* C03: re-inserting a resident key replaces its deadline (and its value), keeping the stored
   conflict hash; with ttl = 0 the entry no longer expires *)
Theorem update_replaces_deadline vld s k v c t s' old :
  st_try_update vld s k v c t = (s', UUpdate old) ->
  exists e, aget k (st_map s) = Some e /\ e_val e = old /\
    aget k (st_map s') = Some {| e_conflict := e_conflict e; e_val := v; e_exp := t |} /\
    forall k', k' <> k -> aget k' (st_map s') = aget k' (st_map s).
Proof.
  unfold st_try_update. destruct (aget k (st_map s)) as [e|] eqn:E; [|intros H; inversion H].
  destruct (negb (conflict_ok c e)); [intros H; inversion H|].
  destruct (negb (vld (e_val e) v)); [intros H; inversion H|].
  intros H; inversion H; subst; clear H. exists e. split; [reflexivity|]. split; [reflexivity|].
  cbn [st_map]. split; [apply aget_aset_same|]. intros k' Hne. apply aget_aset_other. assumption.
Qed.

(* C09: when the validator vetoes, nothing at all changes (value, deadline, expiry index) *)
Theorem veto_keeps_everything vld s k v c t e :
  aget k (st_map s) = Some e -> conflict_ok c e = true -> vld (e_val e) v = false ->
  st_try_update vld s k v c t = (s, UReject) /\ st_try_insert vld s k v c t = s.
Proof.
  intros He Hc Hv. unfold st_try_update, st_try_insert. rewrite He, Hc, Hv. split; reflexivity.
Qed.

Theorem update_absent_is_noop vld s k v c t :
  aget k (st_map s) = None -> st_try_update vld s k v c t = (s, UNotExist).
Proof. intros H. unfold st_try_update. rewrite H. reflexivity. Qed.

(* C18: two keys sharing an index but differing in (non-zero) conflict stay isolated *)
Section Collisions.
  Variables (s : storage) (k c1 c2 : N) (e : entry).
  Hypothesis He : aget k (st_map s) = Some e.
  Hypothesis Hc2 : e_conflict e = c2.
  Hypothesis Hne : c1 <> c2.
  Hypothesis Hnz : c1 <> 0.

  Lemma conflict_mismatch : conflict_ok c1 e = false.
  Proof.
    unfold conflict_ok. rewrite Hc2. destruct (N.eqb_spec c1 0); [tauto|].
    destruct (N.eqb_spec c1 c2); [tauto|reflexivity].
  Qed.

  Theorem colliding_get_none now : st_get now s k c1 = None.
  Proof. unfold st_get. rewrite He, conflict_mismatch. reflexivity. Qed.

  Theorem colliding_update_noop vld v t : st_try_update vld s k v c1 t = (s, UConflict).
  Proof. unfold st_try_update. rewrite He, conflict_mismatch. reflexivity. Qed.

  Theorem colliding_insert_noop vld v t : st_try_insert vld s k v c1 t = s.
  Proof. unfold st_try_insert. rewrite He, conflict_mismatch. reflexivity. Qed.

  Theorem colliding_remove_noop : st_try_remove s k c1 = (s, None).
  Proof. unfold st_try_remove. rewrite He, conflict_mismatch. reflexivity. Qed.
End Collisions.

Lemma em_keep_In em now b m : In (b, m) (em_keep em now) <-> In (b, m) em /\ cleanup_bucket now < b.
Proof. unfold em_keep. rewrite filter_In, negb_true_iff, N.leb_gt. reflexivity. Qed.

Lemma em_due_In em now b m : In (b, m) (em_due em now) <-> In (b, m) em /\ b <= cleanup_bucket now.
Proof. unfold em_due. rewrite filter_In, N.leb_le. reflexivity. Qed.

(* C05: a cleanup takes every bucket whose second has begun, and no other *)
Theorem cleanup_takes_exactly_the_due_buckets em now em' due :
  em_cleanup em now = (em', Some due) ->
  (forall b m, In (b, m) em' -> cleanup_bucket now < b) /\
  (forall b m, In (b, m) em -> b <= cleanup_bucket now -> ~ In (b, m) em') /\
  (forall b m, In (b, m) em -> cleanup_bucket now < b -> In (b, m) em').
Proof.
  unfold em_cleanup. destruct (em_due em now); intros [= <- _].
  repeat split; intros b m; rewrite em_keep_In; intros; lia || tauto.
Qed.

Theorem cleanup_nothing_due em now em' : em_cleanup em now = (em', None) ->
  em' = em /\ forall b m, In (b, m) em -> cleanup_bucket now < b.
Proof.
  unfold em_cleanup. destruct (em_due em now) eqn:D; intros [= <-]. split; [reflexivity|].
  intros b m Hin. apply N.lt_nge. intros Hle.
  pose proof (proj2 (em_due_In em now b m) (conj Hin Hle)) as X. rewrite D in X. destruct X.
Qed.

Lemma st_get_stored now s k cf e : st_get now s k cf = Some e -> aget k (st_map s) = Some e.
Proof. unfold st_get. destruct (aget k (st_map s)) as [e0|]; [destruct (_ && _)|]; congruence. Qed.

Lemma st_get_expiration now s k cf e : st_get now s k cf = Some e -> st_expiration s k = Some (e_exp e).
Proof. unfold st_get, st_expiration. destruct (aget k (st_map s)) as [e0|]; [destruct (_ && _)|]; congruence. Qed.

(* how the store operations write the store: not at all, or the entry under one key gets a new value in
   place, is replaced (P holds of the new deadline, and the index follows the deadline), or goes *)
Inductive store_wr (P : time -> Prop) (s : storage) : storage -> Prop :=
| SwSame : store_wr P s s
| SwVal k e v : aget k (st_map s) = Some e ->
    store_wr P s {| st_map := aset k {| e_conflict := e_conflict e; e_val := v; e_exp := e_exp e |} (st_map s);
                    st_em := st_em s |}
| SwUpd k e e' c : aget k (st_map s) = Some e -> P (e_exp e') ->
    store_wr P s {| st_map := aset k e' (st_map s); st_em := em_update (st_em s) k c (e_exp e) (e_exp e') |}
| SwIns k e' c : aget k (st_map s) = None -> P (e_exp e') ->
    store_wr P s {| st_map := aset k e' (st_map s); st_em := em_insert (st_em s) k c (e_exp e') |}
| SwDel k e : aget k (st_map s) = Some e ->
    store_wr P s {| st_map := adel k (st_map s);
                    st_em := if t_is_zero (e_exp e) then st_em s else em_remove (st_em s) k (e_exp e) |}.

Lemma try_update_wr (P : time -> Prop) vld s k v c t s' r :
  st_try_update vld s k v c t = (s', r) -> P t -> store_wr P s s'.
Proof.
  unfold st_try_update. destruct (aget k (st_map s)) as [e|] eqn:G; [destruct (negb _); [|destruct (negb _)]|];
    intros [= <- _] Pt; try apply SwSame.
  exact (SwUpd P s k e {| e_conflict := e_conflict e; e_val := v; e_exp := t |} c G Pt).
Qed.

Lemma try_insert_wr (P : time -> Prop) vld s k v c t : P t -> store_wr P s (st_try_insert vld s k v c t).
Proof.
  intros Pt. unfold st_try_insert. destruct (aget k (st_map s)) as [e|] eqn:G; [destruct (negb _); [|destruct (negb _)]|];
    try apply SwSame.
  - exact (SwUpd P s k e {| e_conflict := c; e_val := v; e_exp := t |} c G Pt).
  - exact (SwIns P s k {| e_conflict := c; e_val := v; e_exp := t |} c G Pt).
Qed.

Lemma try_remove_wr P s k c s' prev : st_try_remove s k c = (s', prev) -> store_wr P s s'.
Proof.
  unfold st_try_remove. destruct (aget k (st_map s)) as [e|] eqn:G; [destruct (negb _)|]; intros [= <- _];
    try apply SwSame.
  eapply SwDel. exact G.
Qed.

Lemma write_wr P s k v : store_wr P s (st_write s k v).
Proof. unfold st_write. destruct (aget k (st_map s)) as [e|] eqn:G; [eapply SwVal; exact G|apply SwSame]. Qed.
