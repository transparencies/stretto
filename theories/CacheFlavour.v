(* CacheFlavour.v — property C19: where, exactly, the two flavours differ.  The model has one
   transition function for both; it consults the flavour ([c_async]) in two definitions only:
   [pol_queue_cap], read by the flush of the get ring, and [stop_cap], read by the two stop
   handshakes of close(). *)
From StrettoModel Require Import BaseProofs Cache CacheSteps CacheMetrics.
Open Scope N_scope.

Definition with_flavour (c : cfg) (b : bool) : cfg :=
  {| c_ignore_internal := c_ignore_internal c; c_item_size := c_item_size c; c_buf_cap := c_buf_cap c;
     c_buffer_items := c_buffer_items c; c_metrics := c_metrics c; c_validator := c_validator c;
     c_coster := c_coster c; c_async := b |}.

(* the steps whose outcome may depend on the flavour: a get-ring flush when the policy's queue
   holds SYNC_POLICY_QUEUE_CAP batches (sync drops, async queues), and the two stop
   handshakes of close() (sync rendezvous, async buffered message) *)
Definition flavour_insensitive (c : cfg) (st : cstate) (l : label) : Prop :=
  match l with
  | LOp _ op =>
      if is_lookup op && negb (s_closed st) then N.of_nat (length (s_pqueue st)) < Consts.SYNC_POLICY_QUEUE_CAP else True
  | LClient a =>
      match client_of st a with
      | KCloseBeforeStop => s_pc st = PExited
      | KPolCloseBeforeStop => s_wpc st = WExited
      | _ => True
      end
  | _ => True
  end.

Lemma buf_send_flavour c b st it : buf_send (with_flavour c b) st it = buf_send c st it.
Proof. reflexivity. Qed.

Lemma emit_flavour c b st evs : emit (with_flavour c b) st evs = emit c st evs.
Proof. reflexivity. Qed.

Lemma policy_push_flavour c st ks :
  N.of_nat (length (s_pqueue st)) < Consts.SYNC_POLICY_QUEUE_CAP ->
  policy_push (with_flavour c true) st ks = policy_push (with_flavour c false) st ks.
Proof.
  intros H. unfold policy_push. destruct (s_pol_closed st); [reflexivity|]. destruct ks; [reflexivity|].
  destruct (s_wpc st); [|reflexivity]. unfold pol_queue_cap. cbn [c_async with_flavour].
  destruct (N.of_nat (length (s_pqueue st)) <? Consts.SYNC_POLICY_QUEUE_CAP) eqn:E; [reflexivity|lia].
Qed.

Lemma ring_push_flavour c st k :
  N.of_nat (length (s_pqueue st)) < Consts.SYNC_POLICY_QUEUE_CAP ->
  ring_push (with_flavour c true) st k = ring_push (with_flavour c false) st k.
Proof.
  intros H. unfold ring_push. cbn [c_buffer_items with_flavour].
  destruct (c_buffer_items c <=? _); [|reflexivity]. apply policy_push_flavour. exact H.
Qed.

Lemma prepare_evicts_flavour c b cbs : forall st, prepare_evicts (with_flavour c b) st cbs = prepare_evicts c st cbs.
Proof.
  induction cbs as [|cb cbs IH]; intros st; cbn [prepare_evicts]; [reflexivity|].
  destruct cb; try apply IH. change (prepare_evict (with_flavour c b) st k) with (prepare_evict c st k).
  destruct (prepare_evict c st k); [apply IH|reflexivity].
Qed.

Lemma tick_next_flavour c b st h rest acc : tick_next (with_flavour c b) st h rest acc = tick_next c st h rest acc.
Proof. unfold tick_next. destruct rest; [rewrite prepare_evicts_flavour|]; reflexivity. Qed.

(* the processor and the policy worker (the shared macros impl_cache_processor / impl_policy) never
   consult the flavour *)
Theorem proc_step_flavour c b st h : proc_step (with_flavour c b) st h = proc_step c st h.
Proof.
  unfold proc_step. destruct (s_pc st); try reflexivity.
  - destruct v. destruct (st_try_remove _ _ _) as [sto prev]. rewrite prepare_evicts_flavour. reflexivity.
  - destruct (st_expiration _ _); [|apply tick_next_flavour].
    destruct (negb _ && _); [reflexivity|apply tick_next_flavour].
  - destruct (st_try_remove _ _ _) as [sto prev]. apply tick_next_flavour.
Qed.

Theorem worker_step_flavour c b st h : worker_step (with_flavour c b) st h = worker_step c st h.
Proof. reflexivity. Qed.

(* C19: every step of every actor has the same outcome — same next state, same callbacks, same
   result — in both flavours, except where [flavour_insensitive] fails. *)
Theorem flavours_agree c st l :
  flavour_insensitive c st l -> cstep (with_flavour c true) st l = cstep (with_flavour c false) st l.
Proof.
  intros FI. destruct l as [a op|a|h|h|dt|]; cbn [cstep flavour_insensitive] in *; try reflexivity.
  - destruct (client_of st a); try reflexivity. destruct op; cbn [start_op is_lookup andb] in *; try reflexivity;
      (destruct (s_closed st); [reflexivity|]); cbn [negb] in FI; rewrite (ring_push_flavour c st k FI); reflexivity.
  - unfold continue_client. destruct (client_of st a); try reflexivity; rewrite FI; reflexivity.
  - rewrite !proc_step_flavour. reflexivity.
Qed.

(* C19: the stop handshake of close() ends in the same state with the same callbacks *)
Theorem close_handshake_agrees c st a h :
  client_of st a = KCloseBeforeStop -> s_pc st = PIdle -> s_stop_msgs st = 0 -> h_arm h = Some ArmStop ->
  exists st1 cbs,
    crun (with_flavour c false) st [LClient a; LProc h; LClient a] =
      Some (st1, [mk_out PtBlocked [] RNone; mk_out PtProcExit cbs RNone; mk_out PtCloseBeforePolicy [] RNone]) /\
    crun (with_flavour c true) st [LClient a; LProc h] =
      Some (st1, [mk_out PtCloseBeforePolicy [] RNone; mk_out PtProcExit cbs RNone]).
Proof.
  intros CA PC SM HA.
  set (done := s_clear_sigs st ++ fst (drain_items (s_buf st) (s_done st) [])).
  set (cbs := snd (drain_items (s_buf st) (s_done st) [])).
  set (exited := fun s => upd_pc (upd_clear_sigs (upd_done (upd_buf s []) done) []) PExited).
  (* sync: the client offers the stop and blocks, the processor takes it, the client goes on *)
  set (s1 := set_client st a KCloseStopOffered).
  assert (E1 : cstep (with_flavour c false) st (LClient a) = StepOk s1 (mk_out PtBlocked [] RNone)).
  { cbn [cstep]. unfold continue_client. rewrite CA, PC, SM. reflexivity. }
  set (s3 := exited (set_client s1 a KCloseStopTaken)).
  assert (E2 : cstep (with_flavour c false) s1 (LProc h) =
               StepOk s3 (mk_out PtProcExit cbs RNone)).
  { cbn [cstep]. unfold proc_step. change (s_pc s1) with (s_pc st). change (s_stop_msgs s1) with (s_stop_msgs st).
    rewrite PC, HA, SM. cbn [N.ltb N.compare]. change (find_offer false (s_clients s1)) with (Some a).
    unfold s1 at 1. rewrite client_of_set, N.eqb_refl, drain_buffer_eq. reflexivity. }
  assert (E3 : cstep (with_flavour c false) s3 (LClient a) =
               StepOk (set_client s3 a KCloseBeforePolicy) (mk_out PtCloseBeforePolicy [] RNone)).
  { cbn [cstep]. unfold continue_client. replace (client_of s3 a) with KCloseStopTaken; [reflexivity|].
    unfold s3, exited. clients. rewrite N.eqb_refl. reflexivity. }
  exists (set_client s3 a KCloseBeforePolicy), cbs. split.
  { cbn [crun]. rewrite E1. rewrite E2. rewrite E3. reflexivity. }
  (* async: the client leaves a stop message and goes on, the processor takes the message *)
  set (t1 := set_client (upd_stop_msgs st 1) a KCloseBeforePolicy).
  assert (F1 : cstep (with_flavour c true) st (LClient a) = StepOk t1 (mk_out PtCloseBeforePolicy [] RNone)).
  { cbn [cstep]. unfold continue_client. rewrite CA, PC, SM. reflexivity. }
  assert (F2 : cstep (with_flavour c true) t1 (LProc h) = StepOk (exited (upd_stop_msgs t1 0)) (mk_out PtProcExit cbs RNone)).
  { cbn [cstep]. unfold proc_step. change (s_pc t1) with (s_pc st). rewrite PC, HA.
    change (s_stop_msgs t1) with 1. cbn [N.ltb N.compare]. rewrite drain_buffer_eq. reflexivity. }
  cbn [crun]. rewrite F1. rewrite F2. do 2 f_equal.
  (* the client's continuation was written three times in one final state and once in the other;
     the stop counter is 0 in both *)
  unfold s3, s1, t1, exited, set_client; sproj. rewrite !aset_aset. rewrite <- SM. destruct st; reflexivity.
Qed.
