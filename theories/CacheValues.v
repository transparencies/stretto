(* CacheValues.v — property C02: every value the cache holds, queues or returns for key k was written
   under k; an accepted update is visible at once; a store entry changes only by a write to its own
   key or by its removal. *)
From StrettoModel Require Import BaseProofs StoreProofs Cache CacheSteps CacheAgree CacheMap.
Open Scope N_scope.

Section Written.
(* P k v: "value v was written under key (index) k" — any predicate closed under the writes of the run *)
Variable P : N -> N -> Prop.

Definition item_ok (it : item) : Prop := match it with INew k _ _ v _ => P k v | _ => True end.
Definition cont_ok (k : ccont) : Prop :=
  match k with KInsSend it _ => item_ok it | KGetStore k _ (Some v) => P k v | _ => True end.
Definition pc_ok (p : ppc) : Prop := match p with PNewAfterAdd k _ v _ _ _ _ => P k v | _ => True end.
Definition store_ok (s : storage) : Prop := forall k e, aget k (st_map s) = Some e -> P k (e_val e).

Definition label_ok (l : label) : Prop :=
  match l with
  | LOp _ (OInsert k _ v _ _ _) => P k v
  | LOp _ (OGetMutWrite k _ v) => P k v
  | _ => True
  end.

(* the invariant on the four components it reads; [WI] is this at a state *)
Definition WIv (sto : storage) (buf : list item) (cl : amap ccont) (pc : ppc) : Prop :=
  store_ok sto /\ Forall item_ok buf /\
  (forall a, cont_ok (match aget a cl with Some k => k | None => KIdle end)) /\ pc_ok pc.

Definition WI (st : cstate) : Prop := WIv (s_store st) (s_buf st) (s_clients st) (s_pc st).

End Written.

(* the store's part of WI follows from CacheMap.key_step; the other three change in a handful of rules *)
Section Step.
Variables (P : N -> N -> Prop) (c : cfg) (st : cstate) (l : label) (st' : cstate) (o : out).
Hypotheses (W : WI P st) (L : label_ok P l) (H : cstep c st l = StepOk st' o).

Lemma WI_client a : cont_ok P (client_of st a).
Proof. apply W. Qed.

Lemma write_cause_ok k v : write_cause st l k v -> P k v.
Proof.
  intros [a cf cost ttl only E|a cf _ K|h cf exp cost vs _ PC].
  - rewrite E in L. exact L.
  - pose proof (WI_client a) as C. rewrite K in C. exact C.
  - destruct W as (_ & _ & _ & Pc). rewrite PC in Pc. exact Pc.
Qed.

Lemma store_ok_step : store_ok P (s_store st').
Proof.
  destruct W as (S & _). intros k e G. destruct (key_step _ _ _ _ _ k H) as [E|e' E C|E _]; rewrite E in G.
  - exact (S k e G).
  - injection G as <-. apply write_cause_ok, C.
  - discriminate G.
Qed.

Lemma buf_ok_step : Forall (item_ok P) (s_buf st').
Proof.
  destruct W as (_ & B & _). pose proof WI_client as C. step_cases H; try exact B.
  (* ClInsSent, ClRemSent, ClWaitSent *)
  1-3: apply Forall_app; split; [exact B|constructor; [|constructor]]; try exact I.
  (* ClInsSent *)
  1: match goal with K : client_of st ?a = _ |- _ => specialize (C a); rewrite K in C; exact C end.
  (* PrNew, PrUpdate, PrDelete, PrWait *)
  1-4: match goal with E : s_buf st = _ |- _ => rewrite E in B end; inversion B; assumption.
  (* PrClear, PrStop *)
  all: constructor.
Qed.

Lemma cont_ok_step b : cont_ok P (client_of st' b).
Proof.
  pose proof WI_client as C. step_cases H; clients; try apply C.
  (* OpInsNew, OpGetMut: the new continuation carries the value its label names *)
  all: destruct (N.eqb b a); [|apply C]; try exact I; exact L.
Qed.

Lemma pc_ok_step : pc_ok P (s_pc st').
Proof.
  destruct W as (_ & B & _ & Pc). step_cases H; try exact Pc; try exact I.
  (* PrNew *)
  match goal with E : s_buf st = _ |- _ => rewrite E in B end. inversion B; assumption.
Qed.
End Step.

Theorem WI_step P c st l st' o : WI P st -> label_ok P l -> cstep c st l = StepOk st' o -> WI P st'.
Proof.
  intros W L H. split; [eapply store_ok_step; eassumption|].
  split; [eapply buf_ok_step; eassumption|]. split; [|eapply pc_ok_step; eassumption].
  intros a. eapply cont_ok_step; eassumption.
Qed.

(* C02: a lookup of k, get and get_mut alike, returns nothing or a value written under k *)
Theorem lookup_returns_written_value P c st a k cf w st' o :
  WI P st -> client_of st a = KGetStore k cf w -> cstep c st (LClient a) = StepOk st' o ->
  match o_res o with
  | RGet (Some (v, _)) => P k v
  | RGetMut (Some v) => P k v
  | RGet None | RGetMut None => True
  | _ => False
  end.
Proof.
  intros (S & _) CA H. cbn [cstep] in H. apply continue_client_rule in H. destruct H; try congruence; cbn [o_res mk_out].
  (* ClGetMiss; ClGetMutHit, ClGetHit *)
  1: match goal with |- context [miss_res ?w] => destruct w end; exact I.
  all: match goal with G : st_get _ _ ?k0 _ = Some ?e |- _ =>
         replace k with k0 by congruence; exact (S k0 e (st_get_stored _ _ _ _ _ G)) end.
Qed.

Fixpoint writes (ls : list label) : list (N * N) :=
  match ls with
  | [] => []
  | LOp _ (OInsert k _ v _ _ _) :: r => (k, v) :: writes r
  | LOp _ (OGetMutWrite k _ v) :: r => (k, v) :: writes r
  | _ :: r => writes r
  end.

Lemma WI_init P c mc t now : WI P (cinit c mc t now).
Proof.
  unfold WI, WIv, cinit; sproj. split; [intros k e X; discriminate X|]. split; [constructor|]. split; [intros a; exact I|exact I].
Qed.

Lemma writes_app l1 l2 : writes (l1 ++ l2) = writes l1 ++ writes l2.
Proof.
  induction l1 as [|l l1 IH]; [reflexivity|].
  destruct l as [a [ | | | | | | | | | | ]| | | | | ]; cbn [app writes]; rewrite IH; reflexivity.
Qed.

Lemma writes_label_ok ls : Forall (label_ok (fun k v => In (k, v) (writes ls))) ls.
Proof.
  apply Forall_forall. intros l Hl. apply in_split in Hl. destruct Hl as (l1 & l2 & ->).
  destruct l as [a [ | | | | | | | | | | ]| | | | | ]; cbn [label_ok]; try exact I;
    rewrite writes_app; apply in_or_app; right; left; reflexivity.
Qed.

(* C02: after any run, every value resident, queued or in flight was written under its key by an
   insert or a get_mut write of that run *)
Theorem run_holds_only_written_values c mc t now ls st os :
  crun c (cinit c mc t now) ls = Some (st, os) -> WI (fun k v => In (k, v) (writes ls)) st.
Proof.
  intros R. eapply (crun_ind_inv c _ _ (WI_step _ c)); [apply WI_init|apply writes_label_ok|exact R].
Qed.

(* C02: an accepted update, and a remove, are visible at once *)
Theorem update_is_immediate c st a k cf v cost ttl only e :
  s_closed st = false -> aget k (st_map (s_store st)) = Some e -> conflict_ok cf e = true ->
  c_validator c (e_val e) v = true ->
  exists st', start_op c st a (OInsert k cf v cost ttl only) =
                StepOk st' (mk_out PtInsBeforeSend [CbExit (e_val e)] RNone) /\
    (exists e', aget k (st_map (s_store st')) = Some e' /\ e_val e' = v /\ e_conflict e' = e_conflict e /\
                e_exp e' = {| t_created := s_now st; t_d := ttl |}) /\
    (forall k', k' <> k -> aget k' (st_map (s_store st')) = aget k' (st_map (s_store st))).
Proof.
  intros Hc Ha Hk Hv.
  destruct (try_update_accepts (c_validator c) _ k v cf {| t_created := s_now st; t_d := ttl |} e Ha Hk Hv) as (sto & TU).
  destruct (update_replaces_deadline _ _ _ _ _ _ _ _ TU) as (e0 & G0 & _ & Gk & Go).
  rewrite Ha in G0. injection G0 as <-.
  cbn [start_op]. rewrite Hc, TU. eexists. split; [reflexivity|]. split; [|exact Go].
  eexists. split; [exact Gk|]. auto.
Qed.

Theorem remove_is_immediate c st a k cf e :
  s_closed st = false -> aget k (st_map (s_store st)) = Some e -> conflict_ok cf e = true ->
  exists st', start_op c st a (ORemove k cf) = StepOk st' (mk_out PtRemBeforeSend [CbExit (e_val e)] RNone) /\
    aget k (st_map (s_store st')) = None /\
    (forall k', k' <> k -> aget k' (st_map (s_store st')) = aget k' (st_map (s_store st))).
Proof.
  intros Hc Ha Hk. destruct (try_remove_takes _ _ _ _ Ha Hk) as (sto & TR & M).
  cbn [start_op]. rewrite Hc, TR. eexists. split; [reflexivity|]. sproj. rewrite M. split; [apply aget_adel_same|].
  intros k' Hne. apply aget_adel_other. exact Hne.
Qed.

(* C02 "never rolled back": under the agreement invariant (every reachable state of a collision-free
   run) a step that replaces the value resident under k is a client's own write to k — never the
   processor, eviction, expiry or the policy worker *)
Theorem value_replaced_only_by_a_write_to_its_key c st l st' o k e e' :
  Agree st -> cstep c st l = StepOk st' o ->
  aget k (st_map (s_store st)) = Some e -> aget k (st_map (s_store st')) = Some e' -> e_val e' <> e_val e ->
  (exists a cf cost ttl only, l = LOp a (OInsert k cf (e_val e') cost ttl only)) \/
  (exists a cf, l = LClient a /\ client_of st a = KGetStore k cf (Some (e_val e'))).
Proof.
  intros AG H A B NE.
  destruct (key_step _ _ _ _ _ k H) as [E|e0 E W|E _]; [congruence| |congruence].
  assert (e0 = e') as -> by congruence.
  destruct W as [a cf cost ttl only ->|a cf -> K|h cf exp cost vs _ PC]; [left; eauto 6|right; eauto|].
  (* the processor stores an admitted item only under a key that is not resident *)
  rewrite (Agree_admit_absent st AG _ _ _ _ _ _ PC) in A. discriminate A.
Qed.

Corollary reachable_value_replaced_only_by_a_write c mc t now st l st' o k e e' :
  reach_cf c (cinit c mc t now) st -> cstep c st l = StepOk st' o ->
  aget k (st_map (s_store st)) = Some e -> aget k (st_map (s_store st')) = Some e' -> e_val e' <> e_val e ->
  (exists a cf cost ttl only, l = LOp a (OInsert k cf (e_val e') cost ttl only)) \/
  (exists a cf, l = LClient a /\ client_of st a = KGetStore k cf (Some (e_val e'))).
Proof.
  intros R. destruct (reach_cf_inv _ _ _ _ _ R) as (A & _). apply value_replaced_only_by_a_write_to_its_key. exact A.
Qed.
