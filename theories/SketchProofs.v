(* SketchProofs.v — the 4-bit counters and the count-min sketch: C13, and the no-panic part of C20
   for every counter width. *)
From StrettoModel Require Import BaseProofs Sketch.
From Coq Require Import Morphisms ZifyBool ZifyN.
Open Scope N_scope.

Lemma land1 i : N.land i 1 = i mod 2.
Proof. change 1 with (N.ones 1). rewrite N.land_ones. reflexivity. Qed.

Lemma land1_lt i : N.land i 1 < 2.
Proof. rewrite land1. apply N.mod_lt. lia. Qed.

Definition nib_get (b o : N) : N := N.land (N.shiftr b (o * 4)) 15.
Definition nib_inc (b o : N) : N := if nib_get b o <? 15 then b + N.shiftl 1 (o * 4) else b.
Definition nib_halve (b : N) : N := N.land (N.shiftr b 1) 119.

Definition bump (v : N) : N := N.min 15 (v + 1).

(* what nib_inc and nib_halve do to the two nibbles of a byte is a finite table: a property of
   (byte, nibble position) is decided by computing all 256 * 2 cases *)
Definition bytes : list N := map N.of_nat (seq 0 256).
Definition all_bytes (f : N -> N -> bool) : bool := forallb (fun b => f b 0 && f b 1) bytes.

Lemma all_bytes_spec f b o : all_bytes f = true -> b < 256 -> o < 2 -> f b o = true.
Proof.
  unfold all_bytes. rewrite forallb_forall. intros A Hb Ho. specialize (A b).
  rewrite andb_true_iff in A.
  assert (o = 0 \/ o = 1) as [->| ->] by lia; apply A;
    (apply in_map_iff; exists (N.to_nat b); split; [lia|apply in_seq; lia]).
Qed.

Definition chk_inc (b o : N) : bool :=
  let b' := nib_inc b o in
  (b' <? 256) && (nib_get b' o =? bump (nib_get b o)) &&
  (nib_get b' (1 - o) =? nib_get b (1 - o)).

Lemma nib_inc_spec b o : b < 256 -> o < 2 ->
  nib_inc b o < 256 /\ nib_get (nib_inc b o) o = bump (nib_get b o) /\
  nib_get (nib_inc b o) (1 - o) = nib_get b (1 - o).
Proof.
  intros H Ho. assert (A : all_bytes chk_inc = true) by (vm_compute; reflexivity).
  pose proof (all_bytes_spec _ b o A H Ho) as C. unfold chk_inc in C.
  rewrite !andb_true_iff, N.ltb_lt, !N.eqb_eq in C. tauto.
Qed.

Definition chk_halve (b o : N) : bool :=
  (nib_halve b <? 256) && (nib_get (nib_halve b) o =? nib_get b o / 2).

Lemma nib_halve_spec b o : b < 256 -> o < 2 ->
  nib_halve b < 256 /\ nib_get (nib_halve b) o = nib_get b o / 2.
Proof.
  intros H Ho. assert (A : all_bytes chk_halve = true) by (vm_compute; reflexivity).
  pose proof (all_bytes_spec _ b o A H Ho) as C. unfold chk_halve in C.
  rewrite andb_true_iff, N.ltb_lt, N.eqb_eq in C. exact C.
Qed.

Definition row_wf (r : row) : Prop := Forall (fun b => b < 256) r.

Lemma row_get_unfold r i :
  row_get r i = option_map (fun b => nib_get b (N.land i 1)) (nth_error r (N.to_nat (i / 2))).
Proof. unfold row_get, nib_get. destruct (nth_error r (N.to_nat (i / 2))); reflexivity. Qed.

Lemma row_inc_unfold r i :
  row_inc r i = option_map (fun b => list_set r (N.to_nat (i / 2)) (nib_inc b (N.land i 1)))
                           (nth_error r (N.to_nat (i / 2))).
Proof.
  unfold row_inc, nib_inc, nib_get. destruct (nth_error r (N.to_nat (i / 2))) as [b|] eqn:E; [|reflexivity].
  cbn [option_map]. destruct (_ <? 15); [reflexivity|]. rewrite (list_set_same _ _ _ E). reflexivity.
Qed.

Lemma row_inc_spec r i :
  row_wf r -> (N.to_nat (i / 2) < length r)%nat ->
  exists r', row_inc r i = Some r' /\ row_wf r' /\ length r' = length r /\
    forall j, row_get r' j =
      if N.eqb j i then option_map bump (row_get r j) else row_get r j.
Proof.
  intros W Hlt. destruct (nth_error r (N.to_nat (i / 2))) as [b|] eqn:E;
    [|apply nth_error_None in E; lia].
  destruct (nib_inc_spec b (N.land i 1) (proj1 (Forall_forall _ _) W b (nth_error_In _ _ E)) (land1_lt i)) as (I1 & I2 & I3).
  eexists. rewrite row_inc_unfold, E. split; [reflexivity|].
  split; [apply Forall_list_set; assumption|]. split; [apply length_list_set|].
  intros j. rewrite !row_get_unfold.
  destruct (N.eqb_spec j i) as [->|Hne].
  - rewrite nth_error_list_set_same, E by assumption. simpl. f_equal. assumption.
  - destruct (N.eq_dec (j / 2) (i / 2)) as [Hd|Hd].
    + (* the other nibble of the same byte *)
      rewrite Hd, nth_error_list_set_same, E by assumption. simpl. f_equal.
      replace (N.land j 1) with (1 - N.land i 1) by (rewrite !land1; lia). assumption.
    + rewrite nth_error_list_set_other by lia. reflexivity.
Qed.

Lemma row_map_spec (f g : N -> N) r j :
  (forall b o, In b r -> o < 2 -> f b < 256 /\ nib_get (f b) o = g (nib_get b o)) ->
  row_wf (map f r) /\ row_get (map f r) j = option_map g (row_get r j).
Proof.
  intros H. split.
  - apply Forall_map, Forall_forall. intros b Hb. apply (H b 0 Hb). lia.
  - rewrite !row_get_unfold, nth_error_map. destruct (nth_error r (N.to_nat (j / 2))) as [b|] eqn:E; [|reflexivity].
    simpl. f_equal. apply (H b _ (nth_error_In _ _ E)), land1_lt.
Qed.

Lemma row_reset_spec r j : row_wf r ->
  row_wf (row_reset r) /\ row_get (row_reset r) j = option_map (fun v => v / 2) (row_get r j).
Proof.
  intros W. apply (row_map_spec nib_halve). intros b o Hb. apply nib_halve_spec.
  exact (proj1 (Forall_forall _ _) W b Hb).
Qed.

Lemma row_clear_spec r j : row_wf (row_clear r) /\
  row_get (row_clear r) j = option_map (fun _ => 0) (row_get r j).
Proof.
  apply (row_map_spec (fun _ => 0)). intros b o _ _. split; [lia|].
  unfold nib_get. rewrite N.shiftr_0_l. reflexivity.
Qed.

Lemma row_get_lt16 r j v : row_get r j = Some v -> v < 16.
Proof.
  unfold row_get. destruct (nth_error r (N.to_nat (j / 2))) as [b|]; [|discriminate].
  intros [= <-]. pose proof (land_le_mask (N.shiftr b (N.land j 1 * 4)) 15). lia.
Qed.

Lemma row_new_wf w : row_wf (row_new w) /\ length (row_new w) = N.to_nat w.
Proof.
  unfold row_new. split; [|apply repeat_length]. unfold row_wf. rewrite Forall_forall.
  intros b Hb. apply repeat_spec in Hb. lia.
Qed.

Lemma row_clear_new w : row_clear (row_new w) = row_new w.
Proof. apply map_repeat. Qed.

Lemma row_new_get w j v : row_get (row_new w) j = Some v -> v = 0.
Proof.
  rewrite <- row_clear_new, (proj2 (row_clear_spec _ j)).
  destruct (row_get (row_new w) j); [intros [= <-]; reflexivity|discriminate].
Qed.

Definition sk_wf (s : sketch) : Prop :=
  length (sk_seeds s) = length (sk_rows s) /\ sk_rows s <> [] /\
  Forall (fun r => row_wf r /\ 2 * N.of_nat (length r) = sk_mask s + 1) (sk_rows s).

(* the last component of sk_wf s is rows_ok (sk_mask s) (sk_rows s) *)
Definition rows_ok (mask : N) (rows : list row) : Prop :=
  Forall (fun r => row_wf r /\ 2 * N.of_nat (length r) = mask + 1) rows.

Lemma idx_in_row (r : row) mask x :
  2 * N.of_nat (length r) = mask + 1 -> (N.to_nat (N.land x mask / 2) < length r)%nat.
Proof. intros H. pose proof (land_le_mask x mask). lia. Qed.

Lemma next_pow2_ge n : 1 <= n -> n <= next_pow2 n /\ exists e, next_pow2 n = 2 ^ e.
Proof. intros H. unfold next_pow2. split; [apply N.log2_up_le_pow2; lia|eauto]. Qed.

Lemma sk_width_even ctrs : 1 <= ctrs -> 2 * (sk_width ctrs / 2) = sk_width ctrs /\ ctrs <= sk_width ctrs.
Proof.
  intros H. unfold sk_width. destruct (next_pow2_ge ctrs H) as (Hge & e & He). rewrite He in *.
  destruct (N.zero_or_succ e) as [->|[k ->]]; [change (2 ^ 0) with 1 in *; lia|].
  rewrite N.pow_succ_r' in *. pose proof (N.pow_nonzero 2 k). lia.
Qed.

(* C13: every counter width the builder accepts (>= 1, power of two or not) yields a well-formed
   sketch *)
Theorem sk_new_wf ctrs seeds :
  1 <= ctrs -> length seeds = SK_DEPTH ->
  exists s, sk_new ctrs seeds = Some s /\ sk_wf s /\ ctrs <= sk_mask s + 1.
Proof.
  intros H Hs. unfold sk_new. destruct (ctrs <? 1) eqn:E; [lia|].
  eexists. split; [reflexivity|]. destruct (sk_width_even ctrs H) as (Hev & Hge).
  assert (Hpos : 1 <= sk_width ctrs) by lia.
  split; [|simpl; lia]. unfold sk_wf; cbn [sk_rows sk_seeds sk_mask].
  split; [rewrite repeat_length; assumption|]. split; [discriminate|].
  rewrite Forall_forall. intros r Hr. apply repeat_spec in Hr. subst r.
  destruct (row_new_wf (sk_width ctrs / 2)) as (W & L). split; [assumption|]. lia.
Qed.

Theorem sk_new_zero seeds : sk_new 0 seeds = None.
Proof. reflexivity. Qed.

Fixpoint rows_vals (mask h : N) (rows : list row) (seeds : list N) : option (list N) :=
  match rows, seeds with
  | [], _ => Some []
  | r :: rs, sd :: sds =>
      match row_get r (N.land (N.lxor h sd) mask), rows_vals mask h rs sds with
      | Some v, Some vs => Some (v :: vs)
      | _, _ => None
      end
  | _ :: _, [] => None
  end.

Lemma rows_est_vals mask h : forall rows seeds acc,
  rows_est mask h rows seeds acc =
  option_map (fun vs => fold_left N.min vs acc) (rows_vals mask h rows seeds).
Proof.
  induction rows as [|r rows IH]; intros [|sd seeds] acc; cbn [rows_est rows_vals]; try reflexivity.
  destruct (row_get r (N.land (N.lxor h sd) mask)) as [v|]; [|reflexivity].
  rewrite IH. destruct (rows_vals mask h rows seeds) as [vs|]; [|reflexivity].
  cbn [option_map fold_left]. f_equal. f_equal. destruct (v <? acc) eqn:E; lia.
Qed.

Lemma fold_min_min vs : forall a b, fold_left N.min vs (N.min a b) = N.min a (fold_left N.min vs b).
Proof.
  induction vs as [|v vs IH]; intros a b; cbn [fold_left]; [reflexivity|].
  rewrite <- IH. f_equal. lia.
Qed.

Lemma fold_min_le vs a : fold_left N.min vs a <= a.
Proof. rewrite <- (N.min_id a) at 1. rewrite fold_min_min. apply N.le_min_l. Qed.

Lemma fold_min_mono vs vs' : Forall2 N.le vs vs' -> forall a a', a <= a' ->
  fold_left N.min vs a <= fold_left N.min vs' a'.
Proof.
  induction 1 as [|v v' vs vs' Hv _ IH]; intros a a' Ha; cbn [fold_left]; [assumption|].
  apply IH. lia.
Qed.

Lemma fold_min_map (f : N -> N) vs : Proper (N.le ==> N.le) f ->
  forall a, fold_left N.min (map f vs) (f a) = f (fold_left N.min vs a).
Proof.
  intros Hf. induction vs as [|v vs IH]; intros a; cbn [map fold_left]; [reflexivity|].
  rewrite (N.min_mono f _ Hf). apply IH.
Qed.

Lemma rows_vals_lt16 mask h : forall rows seeds vs,
  rows_vals mask h rows seeds = Some vs -> Forall (fun v => v < 16) vs.
Proof.
  induction rows as [|r rows IH]; intros [|sd seeds] vs; cbn [rows_vals];
    try discriminate; try (intros [= <-]; constructor).
  destruct (row_get r _) as [v|] eqn:Ev; [|discriminate].
  destruct (rows_vals mask h rows seeds) as [vs0|] eqn:E; [|discriminate].
  intros [= <-]. constructor; [exact (row_get_lt16 _ _ _ Ev)|exact (IH _ _ E)].
Qed.

(* with at least one row, the starting value 255 plays no role *)
Lemma rows_est_min mask h rows seeds v vs : rows_vals mask h rows seeds = Some (v :: vs) ->
  v < 16 /\ rows_est mask h rows seeds 255 = Some (fold_left N.min vs v).
Proof.
  intros E. pose proof (rows_vals_lt16 _ _ _ _ _ E) as F. inversion F; subst. split; [assumption|].
  rewrite rows_est_vals, E. cbn [option_map fold_left]. rewrite N.min_r by lia. reflexivity.
Qed.

Lemma rows_vals_total mask h : forall rows seeds,
  length seeds = length rows -> rows_ok mask rows ->
  exists vs, rows_vals mask h rows seeds = Some vs /\ length vs = length rows.
Proof.
  induction rows as [|r rows IH]; intros [|sd seeds] Hl HW; simpl in Hl; try discriminate.
  - exists []. split; reflexivity.
  - inversion HW as [|? ? [W L] HW']; subst. injection Hl as Hl.
    destruct (IH seeds Hl HW') as (vs & E & Len). cbn [rows_vals]. rewrite E.
    pose proof (idx_in_row r mask (N.lxor h sd) L) as Hix. apply nth_error_Some in Hix.
    rewrite row_get_unfold. destruct (nth_error r _) as [b|]; [|congruence].
    eexists. split; [reflexivity|]. simpl. congruence.
Qed.

Lemma sk_vals s h : sk_wf s ->
  exists v vs, rows_vals (sk_mask s) h (sk_rows s) (sk_seeds s) = Some (v :: vs).
Proof.
  intros (Hl & Hne & HW). destruct (rows_vals_total (sk_mask s) h _ _ Hl HW) as ([|v vs] & E & Len); [|eauto].
  destruct (sk_rows s); [congruence|discriminate].
Qed.

Theorem sk_est_total s h : sk_wf s -> exists e, sk_est s h = Some e /\ e < 16.
Proof.
  intros W. destruct (sk_vals s h W) as (v & vs & E). destruct (rows_est_min _ _ _ _ _ _ E) as (Hv & Ee).
  eexists. split; [exact Ee|]. pose proof (fold_min_le vs v). lia.
Qed.

Lemma rows_inc_spec mask h : forall rows seeds,
  length seeds = length rows -> rows_ok mask rows ->
  exists rows', rows_inc mask h rows seeds = Some rows' /\ rows_ok mask rows' /\
    length rows' = length rows /\
    forall h' vs, rows_vals mask h' rows seeds = Some vs ->
      exists vs', rows_vals mask h' rows' seeds = Some vs' /\
        Forall2 N.le vs vs' /\ (h' = h -> vs' = map bump vs).
Proof.
  induction rows as [|r rows IH]; intros [|sd seeds] Hl HW; simpl in Hl; try discriminate.
  - exists []. split; [reflexivity|]. split; [constructor|]. split; [reflexivity|].
    intros h' vs H. inversion H; subst. exists []. repeat split; constructor.
  - inversion HW as [|? ? [W L] HW']; subst. injection Hl as Hl.
    destruct (IH seeds Hl HW') as (rows' & HI & HW2 & HL2 & Hv).
    destruct (row_inc_spec r (N.land (N.lxor h sd) mask) W (idx_in_row r mask _ L)) as (r' & RI & W' & L' & G).
    exists (r' :: rows'). cbn [rows_inc]. rewrite RI, HI. split; [reflexivity|].
    split; [constructor; [split; [assumption|rewrite L'; assumption]|assumption]|].
    split; [simpl; congruence|].
    intros h' vs. cbn [rows_vals].
    set (ix := N.land (N.lxor h' sd) mask).
    destruct (row_get r ix) as [v|] eqn:Ev; [|discriminate].
    destruct (rows_vals mask h' rows seeds) as [vs0|] eqn:E0; [|discriminate].
    intros H; inversion H; subst; clear H.
    destruct (Hv h' vs0 E0) as (vs0' & E0' & F2 & Same).
    rewrite (G ix), Ev, E0'.
    destruct (N.eqb_spec ix (N.land (N.lxor h sd) mask)) as [Heq|Hne]; eexists; (split; [reflexivity|]).
    + split; [constructor; [unfold bump; pose proof (row_get_lt16 _ _ _ Ev); lia|assumption]|].
      intros ->. rewrite (Same eq_refl). reflexivity.
    + split; [constructor; [lia|assumption]|]. intros ->. exfalso. apply Hne. reflexivity.
Qed.

Theorem sk_inc_spec s h : sk_wf s ->
  exists s', sk_inc s h = Some s' /\ sk_wf s' /\ sk_mask s' = sk_mask s /\ sk_seeds s' = sk_seeds s /\
    forall h', exists e e', sk_est s h' = Some e /\ sk_est s' h' = Some e' /\ e <= e' /\ e' < 16 /\
                          (h' = h -> e' = bump e).
Proof.
  intros (Hl & Hne & HW).
  destruct (rows_inc_spec (sk_mask s) h (sk_rows s) (sk_seeds s) Hl HW) as (rows' & HI & HW' & HL' & Hv).
  unfold sk_inc. rewrite HI. eexists. split; [reflexivity|].
  split.
  { unfold sk_wf; cbn [sk_rows sk_seeds sk_mask]. split; [congruence|]. split; [|exact HW'].
    intros ->. destruct (sk_rows s); [congruence|discriminate]. }
  split; [reflexivity|]. split; [reflexivity|].
  intros h'. unfold sk_est; cbn [sk_rows sk_seeds sk_mask].
  destruct (sk_vals s h' (conj Hl (conj Hne HW))) as (v & vs & E).
  destruct (Hv h' _ E) as (vs' & E' & F & Same). inversion F as [|? v' ? vs1 Hvv F1]; subst.
  destruct (rows_est_min _ _ _ _ _ _ E) as (_ & ->), (rows_est_min _ _ _ _ _ _ E') as (Hv' & ->).
  do 2 eexists. split; [reflexivity|]. split; [reflexivity|].
  split; [apply fold_min_mono; assumption|].
  split; [pose proof (fold_min_le vs1 v'); lia|].
  intros ->. injection (Same eq_refl) as -> ->. apply fold_min_map. intros x y H. unfold bump. lia.
Qed.

Lemma rows_vals_map mask h (f : row -> row) (g : N -> N) :
  (forall r j, row_wf r -> row_get (f r) j = option_map g (row_get r j)) ->
  forall rows seeds, rows_ok mask rows ->
  rows_vals mask h (map f rows) seeds = option_map (map g) (rows_vals mask h rows seeds).
Proof.
  intros Hf. induction rows as [|r rows IH]; intros [|sd seeds] HW; cbn [map rows_vals]; try reflexivity.
  inversion HW as [|? ? [W L] HW']; subst.
  rewrite Hf by assumption. destruct (row_get r (N.land (N.lxor h sd) mask)) as [v|]; [|reflexivity].
  cbn [option_map]. rewrite IH by assumption.
  destruct (rows_vals mask h rows seeds); reflexivity.
Qed.

(* a bytewise map of the rows acting as a monotone g on every counter acts as g on every estimate *)
Lemma sk_map_spec (f g : N -> N) s h :
  (forall r j, row_wf r -> row_wf (map f r) /\ row_get (map f r) j = option_map g (row_get r j)) ->
  Proper (N.le ==> N.le) g -> sk_wf s ->
  let s' := {| sk_rows := map (map f) (sk_rows s); sk_seeds := sk_seeds s; sk_mask := sk_mask s |} in
  sk_wf s' /\ sk_est s' h = option_map g (sk_est s h).
Proof.
  intros Hf Hg W s'. subst s'. destruct (sk_vals s h W) as (v & vs & E). destruct W as (Hl & Hne & HW). split.
  - unfold sk_wf; cbn [sk_rows sk_seeds sk_mask]. rewrite map_length.
    split; [assumption|]. split; [destruct (sk_rows s); simpl; congruence|].
    rewrite Forall_map. eapply Forall_impl; [|exact HW]. intros r (Wr & L). rewrite map_length.
    split; [apply (Hf r 0 Wr)|exact L].
  - pose proof (rows_vals_map (sk_mask s) h (map f) g (fun r j Wr => proj2 (Hf r j Wr)) _ (sk_seeds s) HW) as E'.
    rewrite E in E'. cbn [option_map map] in E'. unfold sk_est; cbn [sk_rows sk_seeds sk_mask].
    destruct (rows_est_min _ _ _ _ _ _ E) as (_ & ->). etransitivity; [exact (proj2 (rows_est_min _ _ _ _ _ _ E'))|].
    cbn [option_map]. f_equal. apply fold_min_map, Hg.
Qed.

Theorem sk_reset_spec s h : sk_wf s ->
  sk_wf (sk_reset s) /\ sk_est (sk_reset s) h = option_map (fun e => e / 2) (sk_est s h).
Proof.
  apply (sk_map_spec _ (fun e => e / 2)).
  - intros r j. apply row_reset_spec.
  - intros x y H. apply N.div_le_mono; [discriminate|assumption].
Qed.

Theorem sk_clear_spec s h : sk_wf s ->
  sk_wf (sk_clear s) /\ sk_est (sk_clear s) h = Some 0.
Proof.
  intros W. destruct (sk_est_total s h W) as (e & E & _).
  replace (Some 0) with (option_map (fun _ => 0) (sk_est s h)) by (rewrite E; reflexivity).
  revert W. apply (sk_map_spec _ (fun _ => 0)).
  - intros r j _. apply row_clear_spec.
  - intros x y _. reflexivity.
Qed.

Lemma sk_new_clear ctrs seeds s : sk_new ctrs seeds = Some s -> sk_clear s = s.
Proof.
  unfold sk_new. destruct (ctrs <? 1); [discriminate|]. intros [= <-].
  unfold sk_clear; cbn [sk_rows sk_seeds sk_mask map]. rewrite !row_clear_new. reflexivity.
Qed.

Theorem sk_new_est_zero ctrs seeds s h :
  1 <= ctrs -> length seeds = SK_DEPTH -> sk_new ctrs seeds = Some s -> sk_est s h = Some 0.
Proof.
  intros H Hs E. destruct (sk_new_wf ctrs seeds H Hs) as (s0 & E0 & W & _).
  rewrite E in E0. injection E0 as <-.
  rewrite <- (sk_new_clear _ _ _ E). apply sk_clear_spec, W.
Qed.

Lemma rows_est_le_acc mask h : forall rows seeds acc e, rows_est mask h rows seeds acc = Some e -> e <= acc.
Proof.
  intros rows seeds acc e. rewrite rows_est_vals. destruct (rows_vals mask h rows seeds) as [vs|]; [|discriminate].
  cbn [option_map]. intros H; inversion H; subst. apply fold_min_le.
Qed.

Lemma sk_est_le_255 s h e : sk_est s h = Some e -> e <= 255.
Proof. unfold sk_est. apply rows_est_le_acc. Qed.

(* increments keep the shape of the rows, well-formed or not *)
Lemma row_inc_length r i r' : row_inc r i = Some r' -> length r' = length r.
Proof.
  rewrite row_inc_unfold. destruct (nth_error r (N.to_nat (i / 2))); [|discriminate].
  intros H; inversion H; subst. apply length_list_set.
Qed.

Lemma rows_inc_lengths mask h : forall rows seeds rows', rows_inc mask h rows seeds = Some rows' ->
  map (@length N) rows' = map (@length N) rows.
Proof.
  induction rows as [|r rs IH]; intros seeds rows'; cbn [rows_inc].
  - intros H; inversion H; reflexivity.
  - destruct seeds as [|sd sds]; [discriminate|].
    destruct (row_inc r (N.land (N.lxor h sd) mask)) as [r'|] eqn:E; [|discriminate].
    destruct (rows_inc mask h rs sds) as [rs'|] eqn:E2; [|discriminate].
    intros H; inversion H; subst. cbn [map]. rewrite (row_inc_length _ _ _ E), (IH _ _ E2). reflexivity.
Qed.
