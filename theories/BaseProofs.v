(* BaseProofs.v — lemmas about the association-list maps and list helpers of Base.v. *)
From StrettoModel Require Import Base.

Lemma aget_In_pair {V} k (m : amap V) v : aget k m = Some v -> In (k, v) m.
Proof.
  induction m as [|[a b] m IH]; simpl; [discriminate|].
  destruct (N.eqb_spec k a); [subst; intros H; inversion H; auto|]. intros H. right. auto.
Qed.

Lemma aget_in {V} k (m : amap V) v : aget k m = Some v -> In k (akeys m).
Proof. intros H. exact (in_map fst _ _ (aget_In_pair _ _ _ H)). Qed.

Lemma aget_notin {V} k (m : amap V) : ~ In k (akeys m) -> aget k m = None.
Proof. intros H. destruct (aget k m) eqn:E; [|reflexivity]. apply aget_in in E. tauto. Qed.

Lemma in_keys_aget {V} k (m : amap V) : In k (akeys m) -> exists v, aget k m = Some v.
Proof.
  induction m as [|[a b] m IH]; simpl; [tauto|].
  destruct (N.eqb_spec k a); [eauto|]. intros [H|H]; [congruence|auto].
Qed.

Lemma In_pair_aget {V} k v (m : amap V) : NoDup (akeys m) -> In (k, v) m -> aget k m = Some v.
Proof.
  induction m as [|[a b] m IH]; simpl; [tauto|]. intros ND H. inversion ND as [|? ? Hn ND']; subst.
  destruct H as [H|H].
  - inversion H; subst. rewrite N.eqb_refl. reflexivity.
  - destruct (N.eqb_spec k a) as [->|].
    + exfalso. apply Hn. exact (in_map fst _ _ H).
    + auto.
Qed.

Lemma in_adel {V} k k' (m : amap V) : In k' (akeys (adel k m)) <-> In k' (akeys m) /\ k' <> k.
Proof.
  induction m as [|[a b] m IH]; simpl; [tauto|].
  destruct (N.eqb_spec k a); simpl.
  - subst. rewrite IH. split; [tauto|]. intros [[H|H] Hne]; [congruence|tauto].
  - rewrite IH. split; [intros [->|H]; [split; auto|tauto]|tauto].
Qed.

Lemma nodup_adel {V} k (m : amap V) : NoDup (akeys m) -> NoDup (akeys (adel k m)).
Proof.
  induction m as [|[a b] m IH]; simpl; intros ND; [constructor|]. inversion ND; subst.
  destruct (N.eqb_spec k a); [auto|]. simpl. constructor; auto. intros H. apply in_adel in H. tauto.
Qed.

Lemma nodup_aset {V} k v (m : amap V) : NoDup (akeys m) -> NoDup (akeys (aset k v m)).
Proof.
  intros ND. simpl. constructor; [|apply nodup_adel; assumption].
  intros H. apply in_adel in H. tauto.
Qed.

Lemma aget_adel_same {V} k (m : amap V) : aget k (adel k m) = None.
Proof. apply aget_notin. rewrite in_adel. tauto. Qed.

Lemma aget_adel_other {V} k k' (m : amap V) : k <> k' -> aget k (adel k' m) = aget k m.
Proof.
  intros Hne. induction m as [|[a b] m IH]; simpl; [reflexivity|].
  destruct (N.eqb_spec k' a).
  - subst. destruct (N.eqb_spec k a); [tauto|auto].
  - simpl. destruct (N.eqb_spec k a); auto.
Qed.

Lemma aget_aset_same {V} k v (m : amap V) : aget k (aset k v m) = Some v.
Proof. simpl. rewrite N.eqb_refl. reflexivity. Qed.

Lemma aget_aset_other {V} k k' v (m : amap V) : k <> k' -> aget k (aset k' v m) = aget k m.
Proof.
  intros Hne. simpl. destruct (N.eqb_spec k k'); [tauto|]. apply aget_adel_other; assumption.
Qed.

Lemma amem_aset {V} k k' (v : V) m : amem k (aset k' v m) = N.eqb k k' || amem k m.
Proof.
  unfold amem. destruct (N.eqb_spec k k') as [->|Hne].
  - rewrite aget_aset_same. reflexivity.
  - rewrite aget_aset_other by assumption. reflexivity.
Qed.

Lemma amem_adel {V} k k' (m : amap V) : amem k (adel k' m) = negb (N.eqb k k') && amem k m.
Proof.
  unfold amem. destruct (N.eqb_spec k k') as [->|Hne].
  - rewrite aget_adel_same. reflexivity.
  - rewrite aget_adel_other by assumption. reflexivity.
Qed.

Lemma amem_aset_in {V} k (v v' : V) m k' : aget k m = Some v -> amem k' (aset k v' m) = amem k' m.
Proof.
  intros E. rewrite amem_aset. destruct (N.eqb_spec k' k) as [->|]; [|reflexivity]. unfold amem. rewrite E. reflexivity.
Qed.

Lemma amem_In {V} k (m : amap V) : amem k m = true <-> In k (akeys m).
Proof.
  unfold amem. split.
  - destruct (aget k m) eqn:E; [intros _; exact (aget_in _ _ _ E)|discriminate].
  - intros (v & ->)%in_keys_aget. reflexivity.
Qed.

Lemma In_amem {V} (p : key * V) m : In p m -> amem (fst p) m = true.
Proof. intros H. apply amem_In. exact (in_map fst _ _ H). Qed.

Lemma in_adel_in {V} k (m : amap V) p : In p (adel k m) -> In p m.
Proof.
  induction m as [|[a b] m IH]; cbn [adel]; [auto|]. destruct (N.eqb k a); [right; auto|].
  intros [H|H]; [left; assumption|right; auto].
Qed.

Lemma in_aset {V} k (v : V) m k' v' : In (k', v') (aset k v m) -> (k' = k /\ v' = v) \/ In (k', v') m.
Proof. intros [[= <- <-]|H]; [auto|right; exact (in_adel_in _ _ _ H)]. Qed.

Lemma all_vals_aset {V} (P : V -> Prop) k v m :
  (forall k' v', In (k', v') m -> P v') -> P v -> forall k' v', In (k', v') (aset k v m) -> P v'.
Proof. intros H Hv k' v' [[_ ->]|X]%in_aset; eauto. Qed.

Lemma in_keys_aset {V} k k' v (m : amap V) : In k' (akeys (aset k v m)) <-> k' = k \/ In k' (akeys m).
Proof.
  unfold aset. simpl. rewrite in_adel. split.
  - intros [H|[H _]]; auto.
  - intros [H|H]; [auto|]. destruct (N.eq_dec k' k); [auto|right; auto].
Qed.

Lemma aget_filter_key {V} (P : N -> bool) b (m : amap V) :
  aget b (filter (fun p => P (fst p)) m) = if P b then aget b m else None.
Proof.
  induction m as [|[a v] m IH]; cbn [filter aget fst]; [destruct (P b); reflexivity|].
  destruct (P a) eqn:Pa; cbn [aget]; destruct (N.eqb_spec b a) as [->|Hne].
  - rewrite Pa. reflexivity.
  - exact IH.
  - rewrite IH, Pa. reflexivity.
  - exact IH.
Qed.

Lemma asum_adel k m :
  NoDup (akeys m) -> asum (adel k m) = (asum m - match aget k m with Some c => c | None => 0 end)%Z.
Proof.
  induction m as [|[k' v] m IH]; simpl; intros ND; [lia|].
  inversion ND as [|? ? Hn ND']; subst.
  destruct (N.eqb_spec k k') as [->|Hne].
  - rewrite IH by assumption. rewrite (aget_notin _ _ Hn). lia.
  - simpl. rewrite IH by assumption. lia.
Qed.

Lemma asum_aset k c m :
  NoDup (akeys m) -> asum (aset k c m) = (asum m + c - match aget k m with Some p => p | None => 0 end)%Z.
Proof. intros ND. simpl. rewrite asum_adel by assumption. lia. Qed.

Lemma length_adel {V} k (m : amap V) : (length (adel k m) <= length m)%nat.
Proof. induction m as [|[a b] m IH]; simpl; [lia|]. destruct (N.eqb k a); simpl; lia. Qed.

Lemma adel_notin {V} k (m : amap V) : ~ In k (akeys m) -> adel k m = m.
Proof.
  induction m as [|[a b] m IH]; simpl; intros H; [reflexivity|].
  destruct (N.eqb_spec k a); [subst; tauto|]. f_equal. tauto.
Qed.

Lemma adel_absent {V} k (m : amap V) : aget k m = None -> adel k m = m.
Proof. intros G. apply adel_notin. intros I. apply in_keys_aget in I. destruct I as (v & I). congruence. Qed.

Lemma adel_adel {V} k (m : amap V) : adel k (adel k m) = adel k m.
Proof.
  induction m as [|[a b] m IH]; cbn [adel]; [reflexivity|]. destruct (N.eqb k a) eqn:E; [exact IH|].
  cbn [adel]. rewrite E, IH. reflexivity.
Qed.

Lemma aset_aset {V} a (x y : V) m : aset a x (aset a y m) = aset a x m.
Proof. unfold aset. f_equal. cbn [adel]. rewrite N.eqb_refl. apply adel_adel. Qed.

Lemma length_adel_in {V} k (m : amap V) :
  NoDup (akeys m) -> In k (akeys m) -> S (length (adel k m)) = length m.
Proof.
  induction m as [|[a b] m IH]; simpl; [tauto|]. intros ND H. inversion ND as [|? ? Hn ND']; subst.
  destruct (N.eqb_spec k a) as [->|Hne].
  - rewrite adel_notin by assumption. reflexivity.
  - simpl. f_equal. apply IH; [assumption|]. destruct H; [congruence|assumption].
Qed.

Lemma length_list_set {A} (l : list A) i x : length (list_set l i x) = length l.
Proof. revert i; induction l as [|h t IH]; intros [|i]; simpl; auto. Qed.

Lemma nth_error_list_set_same {A} (l : list A) i x :
  (i < length l)%nat -> nth_error (list_set l i x) i = Some x.
Proof. revert i; induction l as [|h t IH]; intros [|i]; simpl; intros H; try lia; auto. apply IH. lia. Qed.

Lemma nth_error_list_set_other {A} (l : list A) i j x :
  i <> j -> nth_error (list_set l i x) j = nth_error l j.
Proof.
  revert i j; induction l as [|h t IH]; intros [|i] [|j]; simpl; intros H; auto; try congruence.
Qed.

Lemma list_set_same {A} (l : list A) i x : nth_error l i = Some x -> list_set l i x = l.
Proof.
  revert i; induction l as [|h t IH]; intros [|i]; simpl; try discriminate.
  - intros [= ->]. reflexivity.
  - intros H. f_equal. auto.
Qed.

Lemma Forall_list_set {A} (P : A -> Prop) l i x : Forall P l -> P x -> Forall P (list_set l i x).
Proof.
  intros F Hx. revert i. induction F as [|h t Hh F IH]; intros [|i]; simpl; constructor; auto.
Qed.

Lemma In_list_set {A} (l : list A) : forall i x y, In y (list_set l i x) -> y = x \/ In y l.
Proof.
  induction l as [|h t IH]; intros [|i] x y; cbn [list_set In]; try tauto.
  - intros [H|H]; auto.
  - intros [H|H]; [auto|]. destruct (IH i x y H); auto.
Qed.

Lemma fold_left_inv {A B} (f : A -> B -> A) (P : A -> Prop) l :
  (forall a b, In b l -> P a -> P (f a b)) -> forall a, P a -> P (fold_left f l a).
Proof.
  induction l as [|b l IH]; cbn [fold_left]; intros Hf a Ha; [exact Ha|].
  apply IH; [intros a' b' Hb; apply Hf; right; exact Hb|apply Hf; [left; reflexivity|exact Ha]].
Qed.

Lemma map_repeat {A B} (f : A -> B) x n : map f (repeat x n) = repeat (f x) n.
Proof. induction n as [|n IH]; cbn [repeat map]; [reflexivity|rewrite IH; reflexivity]. Qed.

Lemma map_const_repeat {A B} (y : B) (l : list A) : map (fun _ => y) l = repeat y (length l).
Proof. induction l as [|x l IH]; cbn [map length repeat]; [reflexivity|rewrite IH; reflexivity]. Qed.

Lemma Forall_snoc {A} (P : A -> Prop) l x : Forall P l -> P x -> Forall P (l ++ [x]).
Proof. intros F H. apply Forall_app. split; [exact F|constructor; [exact H|constructor]]. Qed.

Lemma In_firstn {A} (l : list A) : forall n x, In x (firstn n l) -> In x l.
Proof.
  induction l as [|y l IH]; intros [|n] x; cbn [firstn In]; try tauto. intros [H|H]; eauto.
Qed.

Lemma NoDup_firstn {A} n (l : list A) : NoDup l -> NoDup (firstn n l).
Proof.
  revert n. induction l as [|x l IH]; intros [|n] ND; cbn [firstn]; try constructor;
    inversion ND as [|? ? Hn ND']; subst; [|auto].
  intros H. apply Hn. eapply In_firstn. exact H.
Qed.

Lemma nodup_same_members_same_length (l1 l2 : list N) :
  NoDup l1 -> NoDup l2 -> (forall x, In x l1 <-> In x l2) -> length l1 = length l2.
Proof.
  intros N1 N2 H. apply Nat.le_antisymm; apply NoDup_incl_length; try assumption; intros x Hx; apply H; assumption.
Qed.

Lemma mem_N_In k l : mem_N k l = true <-> In k l.
Proof.
  induction l as [|x t IH]; simpl; [split; [discriminate|tauto]|].
  rewrite orb_true_iff, IH, N.eqb_eq. split; intros [H|H]; auto.
Qed.

Lemma mem_N_app id l1 l2 : mem_N id (l1 ++ l2) = mem_N id l1 || mem_N id l2.
Proof. induction l1 as [|x l1 IH]; cbn [app mem_N]; [reflexivity|]. rewrite IH, orb_assoc. reflexivity. Qed.

Lemma nodup_N_NoDup l : nodup_N l = true <-> NoDup l.
Proof.
  induction l as [|x t IH]; simpl; [split; [constructor|reflexivity]|].
  rewrite andb_true_iff, negb_true_iff, IH. split.
  - intros [H1 H2]. constructor; [|assumption]. intros H. apply mem_N_In in H. congruence.
  - intros H. inversion H as [|? ? Hn ND]; subst. split; [|assumption].
    destruct (mem_N x t) eqn:E; [|reflexivity]. apply mem_N_In in E. tauto.
Qed.

Lemma ins_sorted_In {V} (p q : key * V) l : In q (ins_sorted p l) <-> q = p \/ In q l.
Proof.
  induction l as [|r l IH]; cbn [ins_sorted]; [|destruct (N.leb (fst p) (fst r))]; cbn [In]; rewrite ?IH;
    intuition congruence.
Qed.

Lemma asort_In {V} (q : key * V) m : In q (asort m) <-> In q m.
Proof.
  unfold asort. induction m as [|p m IH]; cbn [fold_right In]; [reflexivity|].
  rewrite ins_sorted_In, IH. intuition congruence.
Qed.

Lemma land_le_mask x m : (N.land x m <= m)%N.
Proof.
  (* every set bit of the conjunction is a set bit of m *)
  apply N.ldiff_le, N.bits_inj. intros n. rewrite N.ldiff_spec, N.land_spec, N.bits_0.
  destruct (N.testbit x n), (N.testbit m n); reflexivity.
Qed.

Lemma wrap64_add_l a b : wrap64 (wrap64 a + b) = wrap64 (a + b).
Proof. unfold wrap64. apply N.add_mod_idemp_l. unfold two64. lia. Qed.

Lemma wrap64_add_r a b : wrap64 (a + wrap64 b) = wrap64 (a + b).
Proof. unfold wrap64. apply N.add_mod_idemp_r. unfold two64. lia. Qed.
