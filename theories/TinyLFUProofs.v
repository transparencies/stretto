(* TinyLFUProofs.v — popularity estimates never undercount between resets and decay by halving (C13);
   the doorkeeper alone has no false negatives over any history of its operations (C14: `bop`, `brun`). *)
From StrettoModel Require Import SketchProofs BloomProofs TinyLFU.

Open Scope N_scope.

Definition tl_wf (t : tinylfu) : Prop := sk_wf (tl_sk t) /\ bl_wf (tl_bl t).

Definition with_sk_bl (t : tinylfu) sk bl : tinylfu :=
  {| tl_sk := sk; tl_bl := bl; tl_samples := tl_samples t; tl_w := tl_w t |}.

Lemma tl_reset_wf t : tl_wf t -> tl_wf (tl_reset t).
Proof.
  intros (W1 & W2). split; cbn [tl_reset tl_sk tl_bl].
  - apply (sk_reset_spec (tl_sk t) 0 W1).
  - apply (bl_reset_spec (tl_bl t) W2).
Qed.

Lemma tl_clear_wf t : tl_wf t -> tl_wf (tl_clear t).
Proof.
  intros (W1 & W2). split; cbn [tl_clear tl_sk tl_bl].
  - apply (sk_clear_spec (tl_sk t) 0 W1).
  - apply (bl_reset_spec (tl_bl t) W2).
Qed.

Lemma tl_try_reset_wf t : tl_wf t -> tl_wf (tl_try_reset t).
Proof.
  intros W. unfold tl_try_reset; cbv zeta. destruct (tl_samples t <=? tl_w t + 1); [apply tl_reset_wf; assumption|].
  exact W.
Qed.

(* the state right after recording g, before the aging check *)
Definition recorded (t : tinylfu) (g : N) (t1 : tinylfu) : Prop :=
  tl_samples t1 = tl_samples t /\ tl_w t1 = tl_w t /\ tl_wf t1 /\
  ((bl_contains (tl_bl t) g = Some false /\ bl_add (tl_bl t) g = Some (tl_bl t1) /\ tl_sk t1 = tl_sk t) \/
   (bl_contains (tl_bl t) g = Some true /\ tl_bl t1 = tl_bl t /\ sk_inc (tl_sk t) g = Some (tl_sk t1))).

Lemma tl_increment_spec t g : tl_wf t -> g < two64 ->
  exists t1, recorded t g t1 /\ tl_increment t g = Some (tl_try_reset t1).
Proof.
  intros (W1 & W2) Hg. unfold tl_increment.
  destruct (bl_coa_cases (tl_bl t) g W2 Hg) as [(Hc & ->)|(Hc & b' & Ha & ->)].
  - destruct (sk_inc_spec (tl_sk t) g W1) as (s' & Hinc & Ws' & _). rewrite Hinc.
    eexists. split; [|reflexivity]. split; [reflexivity|]. split; [reflexivity|].
    split; [split; assumption|]. right. auto.
  - eexists. split; [|reflexivity]. split; [reflexivity|]. split; [reflexivity|].
    split; [split; [assumption|apply (bl_add_contains _ _ _ W2 Hg Ha)]|]. left. auto.
Qed.

Theorem tl_increment_total t g : tl_wf t -> g < two64 ->
  exists t', tl_increment t g = Some t' /\ tl_wf t' /\ tl_samples t' = tl_samples t.
Proof.
  intros W Hg. destruct (tl_increment_spec t g W Hg) as (t1 & (R1 & R2 & R3 & _) & E).
  eexists. split; [exact E|]. split; [apply tl_try_reset_wf; assumption|].
  unfold tl_try_reset; cbv zeta. destruct (tl_samples t1 <=? tl_w t1 + 1); cbn [tl_reset tl_samples]; assumption.
Qed.

Theorem tl_estimate_total t h : tl_wf t -> h < two64 ->
  exists e, tl_estimate t h = Some e /\ e <= 16.
Proof.
  intros (W1 & W2) Hh. unfold tl_estimate.
  destruct (sk_est_total (tl_sk t) h W1) as (e & Ee & He). rewrite Ee.
  destruct (bl_contains_spec (tl_bl t) h W2 Hh) as (v & Hv & _). rewrite Hv.
  destruct v; eexists; (split; [reflexivity|lia]).
Qed.

(* C13: the samples-th recorded access since the last reset — and no earlier one — halves every
   counter, empties the doorkeeper and restarts the window. *)
Theorem reset_exactly_at_samples t g : tl_wf t -> g < two64 ->
  exists t1, recorded t g t1 /\
    (tl_w t + 1 < tl_samples t ->
       tl_increment t g = Some {| tl_sk := tl_sk t1; tl_bl := tl_bl t1; tl_samples := tl_samples t; tl_w := tl_w t + 1 |}) /\
    (tl_samples t <= tl_w t + 1 ->
       exists t', tl_increment t g = Some t' /\ tl_w t' = 0 /\ tl_samples t' = tl_samples t /\
         (forall h, sk_est (tl_sk t') h = option_map (fun e => e / 2) (sk_est (tl_sk t1) h)) /\
         (forall p, bit (bl_words (tl_bl t')) p = false) /\
         (forall h, h < two64 -> 1 <= bl_locs (tl_bl t) -> bl_contains (tl_bl t') h = Some false)).
Proof.
  intros W Hg. destruct (tl_increment_spec t g W Hg) as (t1 & R & E). exists t1. split; [assumption|].
  pose proof R as (R1 & R2 & (W1 & W2) & Hcase). rewrite E. unfold tl_try_reset; cbv zeta. rewrite R1, R2. split.
  - intros H. destruct (tl_samples t <=? tl_w t + 1) eqn:L; [lia|]. reflexivity.
  - intros H. destruct (tl_samples t <=? tl_w t + 1) eqn:L; [|lia].
    eexists. split; [reflexivity|].
    split; [reflexivity|]. split; [assumption|].
    split; [intros h; apply sk_reset_spec; assumption|].
    destruct (bl_reset_spec (tl_bl t1) W2) as (_ & Z & C). split; [assumption|].
    intros h Hh Hl. apply C; [assumption|].
    destruct Hcase as [(_ & Hadd & _)|(_ & Hbl & _)].
    + destruct (bl_add_spec (tl_bl t) g (proj2 W) Hg) as (b2 & Ha2 & _ & _ & _ & S3 & _).
      rewrite Hadd in Ha2. inversion Ha2; subst b2. lia.
    + rewrite Hbl. assumption.
Qed.

Lemma recorded_estimate t g t1 h : tl_wf t -> g < two64 -> recorded t g t1 -> h < two64 ->
  exists e e1, tl_estimate t h = Some e /\ tl_estimate t1 h = Some e1 /\ e <= e1 /\
               (h = g -> e1 = N.min 16 (e + 1)).
Proof.
  intros (W1 & W2) Hg (_ & _ & (W1' & W2') & Hcase) Hh. unfold tl_estimate.
  destruct (bl_contains_spec (tl_bl t) h W2 Hh) as (c & Hc & _).
  destruct Hcase as [(Hcg & Hadd & Hsk)|(Hcg & Hbl & Hinc)].
  - (* first sighting: only the doorkeeper takes it *)
    destruct (bl_contains_spec (tl_bl t1) h W2' Hh) as (c1 & Hc1 & _).
    destruct (bl_add_contains _ _ _ W2 Hg Hadd) as (_ & C1 & C2). rewrite Hsk.
    destruct (sk_est_total (tl_sk t) h W1) as (e & Ee & He). rewrite Ee, Hc, Hc1.
    assert (M : c = true -> c1 = true) by (intros ->; specialize (C2 h Hh Hc); congruence).
    assert (G : h = g -> c = false /\ c1 = true) by (intros ->; split; congruence).
    destruct c, c1; do 2 eexists; repeat split; try reflexivity; lia.
  - (* already in the doorkeeper: the sketch counts it *)
    destruct (sk_inc_spec (tl_sk t) g W1) as (s' & Hinc' & _ & _ & _ & Hest).
    rewrite Hinc in Hinc'. injection Hinc' as <-.
    destruct (Hest h) as (e & e' & Ee & Ee' & Hle & Hlt & Hsame). unfold bump in Hsame.
    assert (G : h = g -> c = true) by (intros ->; congruence).
    rewrite Hbl, Ee, Ee', Hc.
    destruct c; do 2 eexists; repeat split; try reflexivity; lia.
Qed.

(* the invariant of a run of recordings, cnt h being how often h has been recorded *)
Definition est_ge (t : tinylfu) (cnt : N -> N) : Prop :=
  forall h, h < two64 -> exists e, tl_estimate t h = Some e /\ N.min 16 (cnt h) <= e.

Fixpoint count (hs : list N) (h : N) : N :=
  match hs with [] => 0 | g :: hs' => (if N.eqb h g then 1 else 0) + count hs' h end.

Lemma est_ge_recorded t g t1 cnt :
  tl_wf t -> g < two64 -> recorded t g t1 -> est_ge t cnt -> est_ge t1 (fun h => cnt h + count [g] h).
Proof.
  intros W Hg R HG h Hh.
  destruct (recorded_estimate t g t1 h W Hg R Hh) as (e & e1 & E & E1 & Hle & Hsame).
  destruct (HG h Hh) as (e0 & E0 & H0). rewrite E in E0. injection E0 as <-.
  exists e1. split; [assumption|]. cbn [count].
  destruct (N.eqb_spec h g) as [Heq|_]; [rewrite (Hsame Heq)|]; lia.
Qed.

Lemma increments_est_ge : forall hs t cnt t',
  tl_wf t -> Forall (fun g => g < two64) hs ->
  tl_w t + N.of_nat (length hs) < tl_samples t ->
  est_ge t cnt -> tl_increments t hs = Some t' ->
  tl_wf t' /\ tl_w t' = tl_w t + N.of_nat (length hs) /\ tl_samples t' = tl_samples t /\
  est_ge t' (fun h => cnt h + count hs h).
Proof.
  induction hs as [|g hs IH]; intros t cnt t' W F Hw HG; cbn [tl_increments].
  - intros H; inversion H; subst. split; [assumption|]. split; [simpl; lia|]. split; [reflexivity|].
    intros h Hh. specialize (HG h Hh). rewrite N.add_0_r. assumption.
  - inversion F as [|? ? Hg F']; subst. cbn [length] in *.
    (* the window is not full, so this access does not reset: t2 is t1 with the window advanced, and
       neither tl_wf nor tl_estimate reads tl_w *)
    destruct (reset_exactly_at_samples t g W Hg) as (t1 & R & E & _). rewrite E by lia.
    set (t2 := {| tl_sk := tl_sk t1; tl_bl := tl_bl t1; tl_samples := tl_samples t; tl_w := tl_w t + 1 |}).
    assert (W2 : tl_wf t2) by apply R.
    assert (G2 : est_ge t2 (fun h => cnt h + count [g] h)) by exact (est_ge_recorded t g t1 cnt W Hg R HG).
    assert (Hw2 : tl_w t2 + N.of_nat (length hs) < tl_samples t2) by (cbn [t2 tl_w tl_samples]; lia).
    intros H. destruct (IH t2 _ t' W2 F' Hw2 G2 H) as (A & B & C & D). cbn [t2 tl_w tl_samples] in B, C.
    split; [assumption|]. split; [lia|]. split; [assumption|].
    intros h Hh. specialize (D h Hh). cbn [count] in *. rewrite N.add_0_r, <- N.add_assoc in D. exact D.
Qed.

(* C13: between two aging resets the estimate of a key is never lower than the number of times it
   was recorded, saturating at 16: the 4-bit limit plus one for the doorkeeper *)
Theorem estimate_never_undercounts t hs t' :
  tl_wf t -> Forall (fun g => g < two64) hs ->
  tl_w t + N.of_nat (length hs) < tl_samples t ->
  tl_increments t hs = Some t' ->
  forall h, h < two64 -> exists e, tl_estimate t' h = Some e /\ N.min 16 (count hs h) <= e /\ e <= 16.
Proof.
  intros W F Hw E h Hh.
  assert (G0 : est_ge t (fun _ => 0)).
  { intros x Hx. destruct (tl_estimate_total t x W Hx) as (e & Ee & _). exists e. split; [assumption|lia]. }
  destruct (increments_est_ge hs t (fun _ => 0) t' W F Hw G0 E) as (W' & _ & _ & HG).
  destruct (HG h Hh) as (e & Ee & Hle), (tl_estimate_total t' h W' Hh) as (e2 & Ee2 & He).
  exists e. split; [assumption|]. rewrite N.add_0_l in Hle. split; [assumption|congruence].
Qed.

Theorem increments_total : forall hs t,
  tl_wf t -> Forall (fun g => g < two64) hs ->
  exists t', tl_increments t hs = Some t' /\ tl_wf t' /\ tl_samples t' = tl_samples t.
Proof.
  induction hs as [|g hs IH]; intros t W F; cbn [tl_increments].
  - eauto.
  - inversion F; subst. destruct (tl_increment_total t g W) as (t1 & E & W1 & S1); [assumption|].
    rewrite E. destruct (IH t1 W1) as (t' & E' & W' & S'); [assumption|]. exists t'. split; [assumption|].
    split; [assumption|congruence].
Qed.

(* C13: on a fresh or cleared estimator every key estimates zero *)
Theorem tl_clear_spec t h : tl_wf t -> h < two64 -> 1 <= bl_locs (tl_bl t) ->
  tl_wf (tl_clear t) /\ tl_estimate (tl_clear t) h = Some 0 /\ tl_w (tl_clear t) = 0.
Proof.
  intros (W1 & W2) Hh Hl. destruct (sk_clear_spec (tl_sk t) h W1) as (A & B).
  destruct (bl_reset_spec (tl_bl t) W2) as (C & _ & D).
  split; [split; assumption|]. split; [|reflexivity].
  unfold tl_estimate, tl_clear; cbn [tl_sk tl_bl]. rewrite B. unfold bl_clear. rewrite (D h Hh Hl). reflexivity.
Qed.

Theorem tl_new_spec ctrs seeds entries locs :
  1 <= ctrs -> length seeds = SK_DEPTH ->
  N.log2_up (N.max entries 512) <= 64 -> locs * 2 ^ N.log2_up (N.max entries 512) <= two64 ->
  exists t, tl_new ctrs seeds entries locs = Some t /\ tl_wf t /\ tl_samples t = ctrs /\ tl_w t = 0 /\
    forall h, h < two64 -> 1 <= locs -> tl_estimate t h = Some 0.
Proof.
  intros H Hs He Hov. unfold tl_new.
  destruct (sk_new_wf ctrs seeds H Hs) as (s & Es & Ws & _). rewrite Es.
  destruct (bl_new_wf entries locs He Hov) as (Wb & Zb).
  eexists. split; [reflexivity|]. split; [split; assumption|]. split; [reflexivity|]. split; [reflexivity|].
  intros h Hh Hl. unfold tl_estimate; cbn [tl_sk tl_bl].
  rewrite (sk_new_est_zero ctrs seeds s h H Hs Es), bl_contains_empty by auto. reflexivity.
Qed.

Inductive bop := BAdd (h : N) | BCoa (h : N) | BReset.

Definition bstep (b : bloom) (o : bop) : option bloom :=
  match o with
  | BAdd h => bl_add b h
  | BCoa h => option_map snd (bl_contains_or_add b h)
  | BReset => Some (bl_reset b)
  end.

Fixpoint brun (b : bloom) (ops : list bop) : option bloom :=
  match ops with
  | [] => Some b
  | o :: ops' => match bstep b o with Some b' => brun b' ops' | None => None end
  end.

Fixpoint added_since_reset (ops : list bop) (acc : list N) : list N :=
  match ops with
  | [] => acc
  | BAdd h :: ops' => added_since_reset ops' (h :: acc)
  | BCoa h :: ops' => added_since_reset ops' (h :: acc)
  | BReset :: ops' => added_since_reset ops' []
  end.

Definition bop_ok (o : bop) : Prop :=
  match o with BAdd h => h < two64 | BCoa h => h < two64 | BReset => True end.

(* C14: after any sequence of add, contains_or_add and reset, every hash added since the last reset
   is reported present. *)
Theorem bloom_no_false_negative : forall ops b acc b',
  bl_wf b -> Forall bop_ok ops -> Forall (fun h => h < two64) acc ->
  (forall h, In h acc -> bl_contains b h = Some true) ->
  brun b ops = Some b' ->
  bl_wf b' /\ forall h, In h (added_since_reset ops acc) -> bl_contains b' h = Some true.
Proof.
  induction ops as [|o ops IH]; intros b acc b' W F Facc Hacc; cbn [brun added_since_reset].
  - intros H; inversion H; subst. auto.
  - inversion F as [|? ? Ho F']; subst. destruct o as [h|h|]; cbn [bstep bop_ok] in *.
    1: destruct (bl_add b h) as [b1|] eqn:E; [|discriminate].
    2: destruct (bl_coa_cases b h W Ho) as [(C & ->)|(_ & b1 & E & ->)]; cbn [option_map snd].
    (* BCoa of a present h leaves b as it is; BAdd, and BCoa of an absent h, give b1 that has h and loses nothing *)
    2: apply IH; try assumption; [constructor; assumption|]; intros x [<-|Hx]; auto.
    1,2: destruct (bl_add_contains b h b1 W Ho E) as (W1 & C1 & C2); apply IH; try assumption;
      [constructor; assumption|]; intros x [<-|Hx]; [assumption|]; apply C2; [|auto]; rewrite Forall_forall in Facc; auto.
    destruct (bl_reset_spec b W) as (W1 & _). apply IH; try assumption; [constructor|intros x []].
Qed.
