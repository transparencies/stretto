(* CacheClose.v — property C12: when close() returns Ok no worker is left behind.

   The closer's continuations, in order (bracketed: only when the stop channel is full and the
   closer waits for the rendezvous):
     KCloseAfterFlag, KClearBlock _ true, KCloseBeforeStop, [KCloseStopOffered, KCloseStopTaken,]
     KCloseBeforePolicy, KPolCloseBeforeStop, [KPolCloseStopOffered, KPolCloseStopTaken,]
     KPolCloseAfterStop.
   in_close (CacheCloseLive.v) covers all of them; early (CacheCloseAsync.v) those before
   KCloseStopOffered, past_stop those after it; polearly and past_pol_stop likewise around
   KPolCloseStopOffered.

   The handshakes with the processor (s_stop_msgs, s_pc, KClose...) and the policy worker
   (s_pol_stop_msgs, s_wpc, KPolClose...) are one protocol on two channels: in these three files a
   handshake lemma is a conjunction, the processor's half first. *)
From StrettoModel Require Import Cache CacheSteps CacheInv.
Open Scope N_scope.

Definition proc_done (st : cstate) : Prop := s_pc st = PExited \/ 0 < s_stop_msgs st.
Definition work_done (st : cstate) : Prop := s_wpc st = WExited \/ 0 < s_pol_stop_msgs st.

Definition past_stop (k : ccont) : bool :=
  match k with
  | KCloseStopTaken | KCloseBeforePolicy | KPolCloseBeforeStop | KPolCloseStopOffered | KPolCloseStopTaken | KPolCloseAfterStop => true
  | _ => false
  end.
Definition past_pol_stop (k : ccont) : bool :=
  match k with KPolCloseStopTaken | KPolCloseAfterStop => true | _ => false end.

Definition CloseInv (st : cstate) : Prop :=
  (forall a, past_stop (client_of st a) = true -> proc_done st) /\
  (forall a, past_pol_stop (client_of st a) = true -> work_done st) /\
  (s_pol_closed st = true -> proc_done st /\ work_done st).

Lemma done_step c st l st' o :
  cstep c st l = StepOk st' o -> (proc_done st -> proc_done st') /\ (work_done st -> work_done st').
Proof.
  intros H. unfold proc_done, work_done. step_cases H; split; intros D; try exact D.
  (* the rules left fire with the processor (worker) in its loop, so D says a message is in the
     channel: it is taken and the partner exits, or it stays *)
  all: destruct D as [D|D]; [congruence|]; first [left; reflexivity | right; lia].
Qed.

Lemma client_of_clients st1 st2 b : s_clients st1 = s_clients st2 -> client_of st1 b = client_of st2 b.
Proof. unfold client_of. intros ->. reflexivity. Qed.

Lemma past_new c st l st' o b :
  cstep c st l = StepOk st' o ->
  (past_stop (client_of st' b) = true -> past_stop (client_of st b) = true \/ proc_done st') /\
  (past_pol_stop (client_of st' b) = true -> past_pol_stop (client_of st b) = true \/ work_done st').
Proof.
  intros H. unfold proc_done, work_done. step_cases H; clients; split; auto.
  all: destruct (N.eqb_spec b a) as [->|_]; [|auto]; known; cbn [past_stop past_pol_stop]; try discriminate; auto.
  (* ClStopBuffered, ClPolStopBuffered: b gets past the handshake by putting its message into the channel *)
  all: right; right; lia.
Qed.

Lemma pol_closed_new c st l st' o :
  cstep c st l = StepOk st' o -> s_pol_closed st' = true ->
  s_pol_closed st = true \/ exists a, l = LClient a /\ client_of st a = KPolCloseAfterStop.
Proof. intros H. step_cases H; eauto. Qed.

Theorem CloseInv_step c st l st' o : CloseInv st -> cstep c st l = StepOk st' o -> CloseInv st'.
Proof.
  intros (I1 & I2 & I3) H. destruct (done_step c st l st' o H) as (PD & WD). split; [|split].
  - intros b Hb. destruct (proj1 (past_new c st l st' o b H) Hb) as [X|X]; [exact (PD (I1 b X))|exact X].
  - intros b Hb. destruct (proj2 (past_new c st l st' o b H) Hb) as [X|X]; [exact (WD (I2 b X))|exact X].
  - intros Hp. destruct (pol_closed_new c st l st' o H Hp) as [X|(a & _ & CA)].
    + destruct (I3 X) as (A & B). split; [exact (PD A)|exact (WD B)].
    + split; [apply PD, (I1 a)|apply WD, (I2 a)]; rewrite CA; reflexivity.
Qed.

Lemma CloseInv_init c mc t now : CloseInv (cinit c mc t now).
Proof. split; [|split]; [intros a X; discriminate X|intros a X; discriminate X|intros X; discriminate X]. Qed.

Theorem reachable_CloseInv c mc t now st : reach c (cinit c mc t now) st -> CloseInv st.
Proof.
  intros R. apply (reach_ind_inv c (cinit c mc t now) CloseInv); [apply CloseInv_init|exact (CloseInv_step c)|exact R].
Qed.

Lemma stop_msgs_zero c st l st' o :
  cstep c st l = StepOk st' o ->
  (s_stop_msgs st = 0 ->
   s_stop_msgs st' = 0 \/
   (0 < stop_cap c /\ exists a, l = LClient a /\ client_of st a = KCloseBeforeStop /\ client_of st' a = KCloseBeforePolicy)) /\
  (s_pol_stop_msgs st = 0 ->
   s_pol_stop_msgs st' = 0 \/
   (0 < stop_cap c /\ exists a, l = LClient a /\ client_of st a = KPolCloseBeforeStop /\ client_of st' a = KPolCloseAfterStop)).
Proof.
  intros H. step_cases H; split; intros Z; auto.
  (* StBuffered, WkStopBuffered: there is no message to take *)
  all: try lia.
  (* ClStopBuffered, ClPolStopBuffered: only below the channel's capacity *)
  all: right; split; [lia|]; exists a; clients; rewrite N.eqb_refl; auto.
Qed.

(* sync flavour: both stop channels are rendezvous, nothing is ever buffered *)
Definition NoMsgs (st : cstate) : Prop := s_stop_msgs st = 0 /\ s_pol_stop_msgs st = 0.

Lemma NoMsgs_step c st l st' o : c_async c = false -> NoMsgs st -> cstep c st l = StepOk st' o -> NoMsgs st'.
Proof.
  intros SY (M1 & M2) H. destruct (stop_msgs_zero c st l st' o H) as (Z1 & Z2).
  assert (SC : stop_cap c = 0) by (unfold stop_cap; rewrite SY; reflexivity).
  split; [destruct (Z1 M1) as [Z|(L & _)]|destruct (Z2 M2) as [Z|(L & _)]]; first [exact Z|lia].
Qed.

(* C12, either flavour: a closer past the handshakes has a processor / policy worker that has exited
   or holds its stop message (async: the buffered message keeps the stop arm ready) *)
Theorem close_leaves_no_worker_behind c mc t now st a :
  reach c (cinit c mc t now) st -> (client_of st a = KPolCloseAfterStop \/ s_pol_closed st = true) ->
  (s_pc st = PExited \/ 0 < s_stop_msgs st) /\ (s_wpc st = WExited \/ 0 < s_pol_stop_msgs st).
Proof.
  intros R Hk. destruct (reachable_CloseInv c mc t now st R) as (I1 & I2 & I3).
  destruct Hk as [CA|PC]; [|exact (I3 PC)]. split; [apply (I1 a)|apply (I2 a)]; rewrite CA; reflexivity.
Qed.

(* C12, sync flavour: when the closer is about to publish the policy's closed flag and return Ok,
   the processor and the policy worker have both left their loops, and are out in every state in
   which the flag is published *)
Theorem sync_close_returns_after_workers_exit c mc t now st a :
  c_async c = false -> reach c (cinit c mc t now) st ->
  (client_of st a = KPolCloseAfterStop \/ s_pol_closed st = true) ->
  s_pc st = PExited /\ s_wpc st = WExited.
Proof.
  intros SY R Hk.
  assert (NM : NoMsgs st).
  { apply (reach_ind_inv c (cinit c mc t now) NoMsgs); [split; reflexivity| |exact R].
    intros st0 l st1 o W S. eapply NoMsgs_step; eassumption. }
  destruct NM as (M1 & M2).
  destruct (close_leaves_no_worker_behind c mc t now st a R Hk) as ([A|A] & [B|B]); try lia. auto.
Qed.

(* C12: close() is final, no step of any actor re-opens the cache or the policy *)
Theorem closed_is_final c st l st' o :
  cstep c st l = StepOk st' o ->
  (s_closed st = true -> s_closed st' = true) /\ (s_pol_closed st = true -> s_pol_closed st' = true) /\
  (s_pc st = PExited -> s_pc st' = PExited) /\ (s_wpc st = WExited -> s_wpc st' = WExited).
Proof. intros H. step_cases H; repeat split; congruence. Qed.
