(* CacheVictims.v — property C16 at the cache level: the victims the processor goes on to evict, and
   whose cost it reports to on_evict, carry the cost they were charged when the admission began. *)
From StrettoModel Require Import PolicyProofs PolicyVictims Cache CacheSteps CacheProofs.
Open Scope N_scope.

Theorem admission_victims_carry_their_charges c st h k cf v exp st' o vs added cost' :
  s_pc st = PIdle -> h_arm h = Some ArmItem -> WF (s_slfu st) ->
  proc_step c st h = StepOk st' o -> s_pc st' = PNewAfterAdd k cf v exp cost' vs added ->
  forall kv cv, In (kv, cv) vs -> aget kv (sl_kc (s_slfu st)) = Some cv.
Proof.
  intros PC HA W H. apply proc_step_rule in H. destruct H; sproj; try congruence.
  intros [= _ _ _ _ _ <- _] kv cv Hin. destruct victims as [V|]; [|destruct Hin].
  eapply victims_report_their_charge; [exact W|apply est_of_small|eassumption|exact Hin].
Qed.

Theorem victim_eviction_reports_that_cost c st h vk vc rest st' o :
  s_pc st = PNewVictim (vk, vc) rest -> proc_step c st h = StepOk st' o ->
  forall k cf v cost, In (CbEvict k cf v cost) (o_cbs o) -> k = vk /\ cost = vc.
Proof.
  intros PC H. apply proc_step_rule in H. destruct H; try congruence; cbn [o_cbs mk_out]; intros k' cf' v' cost' Hin.
  all: destruct prev; [|destruct Hin]. all: destruct Hin as [[= -> _ _ ->]|[]]; split; congruence.
Qed.
