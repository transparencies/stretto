(* PolicyLive.v — the eviction loop of LFUPolicy::add comes to an end: for every policy state there
   is a legal sequence of sample refills (top the sample up with the first charged keys) under which
   it returns.  Not obvious: a refill can re-add keys that are already sampled, and evicting a
   duplicated key leaves a stale copy that frees nothing when it is picked again.  The measure:
   SAMPLES + 1 times the number of charged keys, plus the number of stale sample entries. *)
From StrettoModel Require Import BaseProofs Policy PolicyProofs.
Open Scope Z_scope.

Definition staleb (kc : amap Z) (p : pair) : bool := negb (amem (fst p) kc).
Definition stale (kc : amap Z) (l : list pair) : nat := length (filter (staleb kc) l).

Definition canon_fill (kc : amap Z) (sample : list pair) : list pair :=
  if (SAMPLES <=? length sample)%nat then sample else sample ++ firstn (SAMPLES - length sample) kc.

Lemma canon_legal kc sample : NoDup (akeys kc) -> legal_fill kc sample (canon_fill kc sample) = true.
Proof.
  intros ND. apply legal_fill_iff. unfold canon_fill.
  destruct (Nat.leb_spec SAMPLES (length sample)) as [E|E];
    [exists []; split; [symmetry; apply app_nil_r|reflexivity]|].
  eexists. split; [reflexivity|]. split; [|split].
  - rewrite <- firstn_map. apply NoDup_firstn, ND.
  - intros p. apply In_firstn.
  - (* lia must see one `length kc`: its element type is spelt `pair` here and `key * Z` in the goal *)
    rewrite app_length, firstn_length. unfold pair in *. lia.
Qed.

Lemma canon_length kc sample : (length sample <= SAMPLES)%nat -> (length (canon_fill kc sample) <= SAMPLES)%nat.
Proof.
  unfold canon_fill. destruct (Nat.leb_spec SAMPLES (length sample)); [auto|].
  intros _. rewrite app_length, firstn_length. lia.
Qed.

Lemma stale_app kc a b : stale kc (a ++ b) = (stale kc a + stale kc b)%nat.
Proof. unfold stale. rewrite filter_app. apply app_length. Qed.

Lemma stale_cons kc a l : stale kc (a :: l) = (stale kc [a] + stale kc l)%nat.
Proof. exact (stale_app kc [a] l). Qed.

Lemma stale_le_length kc l : (stale kc l <= length l)%nat.
Proof.
  unfold stale. induction l as [|p l IH]; cbn [filter length]; [lia|].
  destruct (staleb kc p); cbn [length]; lia.
Qed.

Lemma stale_of_charged kc l : incl l kc -> stale kc l = 0%nat.
Proof.
  unfold stale. induction l as [|[k c] l IH]; intros H; [reflexivity|]. apply incl_cons_inv in H.
  destruct H as [Hk Hl]. apply (in_map fst), in_keys_aget in Hk. destruct Hk as [v Hk].
  cbn [filter]. unfold staleb at 1, amem. rewrite Hk. exact (IH Hl).
Qed.

Lemma stale_canon kc sample : stale kc (canon_fill kc sample) = stale kc sample.
Proof.
  unfold canon_fill. destruct (SAMPLES <=? length sample)%nat; [reflexivity|].
  rewrite stale_app, (stale_of_charged kc (firstn _ kc)) by (intros x; apply In_firstn). apply Nat.add_0_r.
Qed.

Lemma swap_remove_length l i p : nth_error l i = Some p -> S (length (swap_remove l i)) = length l.
Proof.
  destruct l as [|y l _] using rev_ind; [destruct i; discriminate|]. intros _.
  rewrite swap_remove_snoc, length_list_set, app_length. symmetry. apply Nat.add_1_r.
Qed.

Lemma swap_remove_stale kc l i p :
  nth_error l i = Some p -> staleb kc p = true -> S (stale kc (swap_remove l i)) = stale kc l.
Proof.
  destruct l as [|y l _] using rev_ind; [destruct i; discriminate|]. rewrite swap_remove_snoc. intros H Hp.
  assert (P1 : stale kc [p] = 1%nat) by (unfold stale; cbn [filter]; rewrite Hp; reflexivity).
  revert i H. induction l as [|h t IH]; intros [|i] H; cbn [app nth_error list_set] in *.
  - injection H as ->. exact (eq_sym P1).
  - destruct i; discriminate.
  - injection H as ->. rewrite (stale_cons kc p), (stale_cons kc y), stale_app. lia.
  - rewrite (stale_cons kc h (t ++ [y])), (stale_cons kc h (list_set t i y)), <- (IH i H). lia.
Qed.

Definition phi (s : slfu) (sample : list pair) : nat :=
  (S SAMPLES * length (sl_kc s) + stale (sl_kc s) sample)%nat.

(* AddPanic counts as returning: it is excluded on its own, by pol_add_no_panic *)
Definition returns (r : add_result) : Prop :=
  match r with AddDone _ _ _ _ _ => True | AddPanic => True | _ => False end.

Lemma evict_loop_returns est ih k cost : (forall x, est x < I64MAX) ->
  forall n s sample, WF s -> (length sample <= SAMPLES)%nat -> (phi s sample < n)%nat ->
  exists oracle, forall victims log mets,
    returns (evict_loop est ih k cost oracle s sample victims log mets).
Proof.
  intros Hest. induction n as [|n IH]; intros s sample W L P; [lia|].
  destruct (0 <=? sl_room_left s cost) eqn:R; [exists []; intros; cbn [evict_loop]; rewrite R; exact I|].
  remember (canon_fill (sl_kc s) sample) as smp eqn:Esmp.
  assert (LG : legal_fill (sl_kc s) sample smp = true) by (subst smp; apply canon_legal, W).
  destruct (find_min0 est smp) as [[[mk mh] mi] mc] eqn:FM.
  (* refill canonically; if that turn evicts, the measure has gone down *)
  enough (exists oracle, ih <? mh = false -> smp <> [] -> forall victims log mets,
            returns (evict_loop est ih k cost oracle (fst (pol_remove s mk)) (swap_remove smp mi)
                                victims log mets))
    as (oracle & RT).
  { exists (smp :: oracle). intros. cbn [evict_loop]. rewrite R, LG. rewrite FM.
    destruct (ih <? mh); [exact I|]. destruct smp; [exact I|].
    destruct (pol_remove s mk). apply RT; [reflexivity|discriminate]. }
  destruct (ih <? mh); [exists []; discriminate|].
  destruct smp as [|p smp'] eqn:SM; [exists []; tauto|]. rewrite <- SM in *.
  assert (NE : smp <> []) by (rewrite SM; discriminate).
  destruct (find_min0_spec est smp mk mh mi mc Hest NE FM) as (NTH & _).
  pose proof (swap_remove_length smp mi _ NTH) as SL.
  pose proof (canon_length (sl_kc s) sample L) as CL. rewrite <- Esmp in CL.
  destruct (IH (fst (pol_remove s mk)) (swap_remove smp mi) (WF_pol_remove s mk W)) as (oracle & RT);
    [lia| |exists oracle; auto].
  unfold phi in *. rewrite pol_remove_fst. unfold sl_remove.
  destruct (aget mk (sl_kc s)) as [c|] eqn:G; cbn [fst sl_kc].
  - (* a charged key goes: one key less, and at most SAMPLES stale entries *)
    pose proof (length_adel_in mk (sl_kc s) (proj2 W) (aget_in _ _ _ G)).
    pose proof (stale_le_length (adel mk (sl_kc s)) (swap_remove smp mi)). lia.
  - (* the minimum was a stale entry: one stale entry less *)
    assert (ST : staleb (sl_kc s) (mk, mc) = true) by (unfold staleb, amem; cbn [fst]; rewrite G; reflexivity).
    pose proof (swap_remove_stale (sl_kc s) smp mi _ NTH ST).
    pose proof (stale_canon (sl_kc s) sample) as SC. rewrite <- Esmp in SC. lia.
Qed.

(* C20: LFUPolicy::add returns under some legal sequence of refills, whatever the policy holds and
   whatever is added *)
Theorem pol_add_returns est s k cost : (forall x, est x < I64MAX) -> WF s ->
  exists oracle, returns (pol_add est oracle s k cost).
Proof.
  intros Hest W.
  destruct (evict_loop_returns est (est k) k cost Hest (S (phi s [])) s [] W) as (oracle & RT);
    [apply Nat.le_0_l|apply Nat.lt_succ_diag_r|].
  exists oracle. destruct (pol_addP est oracle s k cost); [exact I..|apply RT].
Qed.
