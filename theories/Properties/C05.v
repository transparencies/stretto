(* Property C05 — expired entries are reclaimed, and only expired ones.
   Only statements here; proofs are in StoreProofs.v, CacheLocal.v and CacheExpiry.v. *)
From StrettoModel Require Import StoreProofs Cache CacheLocal CacheAgree CacheExpiry.
Open Scope N_scope.

(* An entry is filed under the second after its deadline's second: strictly after the deadline,
   at most one bucket width (1 s) later. *)
Theorem C05_bucket_lies_within_one_width_after_deadline :
  forall t, t_created t + t_d t < storage_bucket t * NS /\ storage_bucket t * NS <= t_created t + t_d t + NS.
Proof. exact bucket_bounds. Qed.
Print Assumptions C05_bucket_lies_within_one_width_after_deadline.

(* A cleanup at time T takes EVERY bucket whose second has begun and no other — whatever the
   cleanup interval, however late the tick: so the first tick at or after deadline + 1 s sweeps
   the entry's bucket (bounded delay: one bucket width plus one interval). *)
Theorem C05_cleanup_takes_exactly_the_due_buckets :
  forall em now em' due,
  em_cleanup em now = (em', Some due) ->
  (forall b m, In (b, m) em' -> cleanup_bucket now < b) /\
  (forall b m, In (b, m) em -> b <= cleanup_bucket now -> ~ In (b, m) em') /\
  (forall b m, In (b, m) em -> cleanup_bucket now < b -> In (b, m) em').
Proof. exact cleanup_takes_exactly_the_due_buckets. Qed.
Print Assumptions C05_cleanup_takes_exactly_the_due_buckets.

Theorem C05_due_within_one_bucket_width :
  forall now t, t_created t + t_d t + NS <= now -> storage_bucket t <= cleanup_bucket now.
Proof. exact due_within_one_bucket. Qed.
Print Assumptions C05_due_within_one_bucket_width.

Theorem C05_due_implies_elapsed :
  forall now t, storage_bucket t <= cleanup_bucket now -> t_created t + t_d t < now.
Proof. exact due_implies_elapsed. Qed.
Print Assumptions C05_due_implies_elapsed.

(* The sweeper re-checks the stored deadline: an entry that has no TTL or has not expired at that
   moment is neither un-charged nor removed, whatever the buckets list (stale listings are harmless). *)
Theorem C05_sweep_skips_unexpired :
  forall c st h k cf rest acc st' o,
  s_pc st = PTickKey k cf rest acc ->
  (forall t, st_expiration (s_store st) k = Some t -> negb (t_is_zero t) && t_is_expired (s_now st) t = false) ->
  proc_step c st h = StepOk st' o -> s_store st' = s_store st /\ s_slfu st' = s_slfu st.
Proof. exact sweep_skips_unexpired. Qed.
Print Assumptions C05_sweep_skips_unexpired.

(* An expired entry is un-charged by exactly its charged cost, and that cost is what on_evict gets. *)
Theorem C05_sweep_releases_and_reports_charged_cost :
  forall c st h k cf rest acc t charge,
  s_pc st = PTickKey k cf rest acc -> st_expiration (s_store st) k = Some t ->
  negb (t_is_zero t) && t_is_expired (s_now st) t = true ->
  aget k (sl_kc (s_slfu st)) = Some charge ->
  exists st', proc_step c st h = StepOk st' (mk_out PtProcTickAfterPolicy [] RNone) /\
    s_pc st' = PTickAfterPolicy k cf charge rest acc /\ aget k (sl_kc (s_slfu st')) = None /\
    sl_used (s_slfu st') = (sl_used (s_slfu st) - charge)%Z.
Proof. exact sweep_reports_charged_cost. Qed.
Print Assumptions C05_sweep_releases_and_reports_charged_cost.

(* Non-vacuity: buckets for seconds ..02, ..03, ..05; a late tick in second ..04 takes the first two. *)
Example C05_nonvacuous :
  let em := [(1700000002, [(1, 0)]); (1700000003, [(2, 0); (3, 0)]); (1700000005, [(4, 0)])] in
  match em_cleanup em 1700000004250000000 with
  | (em', Some due) => (map fst em', asort due)
  | _ => ([], [])
  end = ([1700000005], [(1, 0); (2, 0); (3, 0)]).
Proof. vm_compute. reflexivity. Qed.

(* ---- the listing invariant (proofs in CacheExpiry.v) ---- *)

(* Every resident entry with a TTL is listed in the expiry index under the bucket of its CURRENT
   deadline — whatever inserts, TTL updates (TTL -> longer/shorter TTL, TTL <-> none) and removes hit
   it or its bucket neighbours — or it is among the keys the running cleanup has taken out of a due
   bucket and not yet visited, and it has expired.  Inductive over every step of every actor. *)
Theorem C05_listing_invariant_is_inductive :
  forall c st l st' o, EmInv st -> pc_cf0 (s_pc st) -> cstep c st l = StepOk st' o -> EmInv st'.
Proof. exact EmInv_step. Qed.
Print Assumptions C05_listing_invariant_is_inductive.

(* No resident TTL entry is ever forgotten: in every reachable state of a collision-free run in which
   the processor is not inside a cleanup, it is listed under its bucket, so the cleanup of that
   second will visit it. *)
Theorem C05_resident_ttl_entry_is_listed :
  forall c mc t now st k e,
  reach_cf c (cinit c mc t now) st ->
  (forall k0 cf rest acc, s_pc st <> PTickKey k0 cf rest acc) ->
  (forall k0 cf cost rest acc, s_pc st <> PTickAfterPolicy k0 cf cost rest acc) ->
  aget k (st_map (s_store st)) = Some e -> t_is_zero (e_exp e) = false ->
  listed (st_em (s_store st)) (storage_bucket (e_exp e)) k.
Proof. exact resident_ttl_entry_is_listed. Qed.
Print Assumptions C05_resident_ttl_entry_is_listed.

(* The cleanup step takes every due bucket: what it leaves is later than its own second ... *)
Theorem C05_cleanup_leaves_no_due_bucket :
  forall c st h st' o,
  s_pc st = PIdle -> h_arm h = Some ArmTick -> proc_step c st h = StepOk st' o -> MB st' (s_now st).
Proof. exact tick_establishes_MB. Qed.
Print Assumptions C05_cleanup_leaves_no_due_bucket.

(* ... and stays so: every later listing (an insert or TTL update made at or after T) is for a later
   second — except an item written before T, already due at T, that the processor admits only now. *)
Theorem C05_listings_stay_later_than_the_last_cleanup :
  forall c st l st' o T,
  T <= s_now st -> MB st T -> no_stale_admission st T -> cstep c st l = StepOk st' o -> MB st' T.
Proof. exact MB_step. Qed.
Print Assumptions C05_listings_stay_later_than_the_last_cleanup.

(* Reclamation: once a cleanup that ran at T is over, no resident entry has a deadline bucket that
   was due at T; in particular an entry whose TTL had elapsed one bucket width (one second) before T
   has been reclaimed. *)
Theorem C05_after_cleanup_nothing_due_is_resident :
  forall st T k e,
  EmInv st -> MB st T ->
  (forall k0 cf rest acc, s_pc st <> PTickKey k0 cf rest acc) ->
  (forall k0 cf cost rest acc, s_pc st <> PTickAfterPolicy k0 cf cost rest acc) ->
  aget k (st_map (s_store st)) = Some e -> t_is_zero (e_exp e) = false ->
  cleanup_bucket T < storage_bucket (e_exp e).
Proof. exact after_cleanup_nothing_due_is_resident. Qed.
Print Assumptions C05_after_cleanup_nothing_due_is_resident.

Theorem C05_elapsed_entry_is_reclaimed :
  forall st T k e,
  EmInv st -> MB st T ->
  (forall k0 cf rest acc, s_pc st <> PTickKey k0 cf rest acc) ->
  (forall k0 cf cost rest acc, s_pc st <> PTickAfterPolicy k0 cf cost rest acc) ->
  aget k (st_map (s_store st)) = Some e -> t_is_zero (e_exp e) = false ->
  t_created (e_exp e) + t_d (e_exp e) + NS <= T -> False.
Proof. exact elapsed_entry_is_reclaimed. Qed.
Print Assumptions C05_elapsed_entry_is_reclaimed.
