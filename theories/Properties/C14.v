(* Property C14 — doorkeeper Bloom filter: no false negatives, sound bit addressing, reset empties.
   Only statements here; proofs are in BloomProofs.v and TinyLFUProofs.v. *)
From StrettoModel Require Import BloomProofs TinyLFU TinyLFUProofs.
Open Scope N_scope.

(* For every history of add / contains_or_add / reset on a well-formed filter, every hash added
   since the last reset is reported present. *)
Theorem C14_no_false_negative :
  forall ops b acc b',
  bl_wf b -> Forall bop_ok ops -> Forall (fun h => h < two64) acc ->
  (forall h, In h acc -> bl_contains b h = Some true) ->
  brun b ops = Some b' ->
  bl_wf b' /\ forall h, In h (added_since_reset ops acc) -> bl_contains b' h = Some true.
Proof. exact bloom_no_false_negative. Qed.
Print Assumptions C14_no_false_negative.

(* contains h  <=>  every one of the set_locs probe positions of h is a set bit; positions are in
   range and the probe arithmetic does not overflow. *)
Theorem C14_contains_iff_all_probes_set :
  forall b hash, bl_wf b -> hash < two64 ->
  exists v, bl_contains b hash = Some v /\
    (v = true <-> forall j, j < bl_locs b ->
                    exists p, bl_loc b hash j = Some p /\ bit (bl_words b) p = true).
Proof. exact bl_contains_spec. Qed.
Print Assumptions C14_contains_iff_all_probes_set.

(* add sets exactly the probe positions of the hash and nothing else. *)
Theorem C14_add_sets_exactly_the_probes :
  forall b hash, bl_wf b -> hash < two64 ->
  exists b', bl_add b hash = Some b' /\ bl_wf b' /\
    bl_size b' = bl_size b /\ bl_exp b' = bl_exp b /\ bl_locs b' = bl_locs b /\ bl_shift b' = bl_shift b /\
    forall p, bit (bl_words b') p = true <->
      bit (bl_words b) p = true \/ exists j, j < bl_locs b /\ bl_loc b hash j = Some p.
Proof. exact bl_add_spec. Qed.
Print Assumptions C14_add_sets_exactly_the_probes.

(* The structural fact the false-positive analysis presupposes: `set idx` changes exactly bit idx,
   and distinct positions are distinct (word, bit-in-word) pairs — no two positions alias. *)
Theorem C14_set_changes_exactly_one_bit :
  forall ws idx ws', ws_set ws idx = Some ws' ->
  length ws' = length ws /\ forall p, bit ws' p = N.eqb p idx || bit ws p.
Proof. exact ws_set_spec. Qed.
Print Assumptions C14_set_changes_exactly_one_bit.

Theorem C14_bit_addressing_injective :
  forall p q, word_of p = word_of q -> bit_in_word p = bit_in_word q -> p = q.
Proof. exact bit_addressing_injective. Qed.
Print Assumptions C14_bit_addressing_injective.

(* reset / clear empty the filter completely. *)
Theorem C14_reset_empties :
  forall b, bl_wf b ->
  bl_wf (bl_reset b) /\ (forall p, bit (bl_words (bl_reset b)) p = false) /\
  forall g, g < two64 -> 1 <= bl_locs b -> bl_contains (bl_reset b) g = Some false.
Proof. exact bl_reset_spec. Qed.
Print Assumptions C14_reset_empties.

(* Sizing: the bit array is the smallest power of two >= max entries 512, allocated in full. *)
Theorem C14_size_is_smallest_power_of_two :
  forall n, let '(sz, e) := get_size n in
  sz = 2 ^ e /\ N.max n 512 <= sz /\ 9 <= e /\ (e = 9 \/ 2 ^ (e - 1) < N.max n 512).
Proof. exact get_size_spec. Qed.
Print Assumptions C14_size_is_smallest_power_of_two.

Theorem C14_new_filter_is_well_formed_and_empty :
  forall entries locs,
  N.log2_up (N.max entries 512) <= 64 -> locs * 2 ^ N.log2_up (N.max entries 512) <= two64 ->
  bl_wf (bl_new entries locs) /\ forall p, bit (bl_words (bl_new entries locs)) p = false.
Proof. exact bl_new_wf. Qed.
Print Assumptions C14_new_filter_is_well_formed_and_empty.

(* Non-vacuity: the capacity-1000 / 1 % filter (9585 entries, 7 probes, 2^14 bits): ten hashes that
   differ only in their high bits are all present, a fresh one is absent, and the bits they set are
   spread over many words (the defect repaired by a9aab8e confined them to the first word). *)
Example C14_nonvacuous :
  let hs := map (fun i => i * 1125899906842624 + 1) [0; 700; 1400; 2100; 2800; 3500; 4200; 4900; 5600; 6300] in
  match brun (bl_new 9585 7) (map BAdd hs) with
  | Some b' =>
      (forallb (fun h => match bl_contains b' h with Some true => true | _ => false end) hs,
       bl_contains b' 12345678901234567,
       8 <=? N.of_nat (length (filter (fun w => negb (N.eqb w 0)) (bl_words b'))))
  | None => (false, None, false)
  end = (true, Some false, true).
Proof. vm_compute. reflexivity. Qed.
