(* Property C16 — charged cost = given cost (or Coster value) + internal overhead.
   Only statements here; proofs are in CacheLocal.v, PolicyVictims.v and CacheVictims.v. *)
From StrettoModel Require Import PolicyProofs Cache CacheLocal PolicyVictims CacheVictims.
Open Scope N_scope.

(* For every explicit cost, every Coster, every value: the item a plain insert of a non-resident key
   sends carries cost + (coster v if cost = 0). *)
Theorem C16_new_item_carries_cost_or_coster :
  forall c st a k cf v cost ttl,
  s_closed st = false -> aget k (st_map (s_store st)) = None ->
  exists st', start_op c st a (OInsert k cf v cost ttl false) =
    StepOk st' (mk_out PtInsBeforeSend [] RNone) /\
    client_of st' a = KInsSend (INew k cf (cost + (if (cost =? 0)%Z then c_coster c v else 0))%Z v
                                     {| t_created := s_now st; t_d := ttl |}) k.
Proof. exact new_item_cost. Qed.
Print Assumptions C16_new_item_carries_cost_or_coster.

(* When the processor admits it, the key is charged exactly item cost + item_size (or + 0 with
   ignore_internal_cost), for every item_size; a refused item is reported with that same amount. *)
Theorem C16_admission_charges_formula :
  forall c st h k cf cost v exp r st' o,
  s_pc st = PIdle -> h_arm h = Some ArmItem -> s_buf st = INew k cf cost v exp :: r ->
  WF (s_slfu st) -> NonNeg (s_slfu st) ->
  proc_step c st h = StepOk st' o ->
  exists victims added, s_pc st' = PNewAfterAdd k cf v exp (internal_cost c cost) victims added /\
    (added = true -> aget k (sl_kc (s_slfu st')) = Some (internal_cost c cost)).
Proof.
  intros c st h k cf cost v exp r st' o Hpc Harm Hbuf _ _.
  exact (admission_charges_formula c st h k cf cost v exp r st' o Hpc Harm Hbuf).
Qed.
Print Assumptions C16_admission_charges_formula.

(* Updates re-charge the entry accordingly once applied. *)
Theorem C16_update_recharges :
  forall c st h k cost ext r old,
  s_pc st = PIdle -> h_arm h = Some ArmItem -> s_buf st = IUpdate k cost ext :: r ->
  aget k (sl_kc (s_slfu st)) = Some old ->
  exists st', proc_step c st h = StepOk st' (mk_out PtProcLoop [] RNone) /\
    aget k (sl_kc (s_slfu st')) = Some (internal_cost c cost + ext)%Z.
Proof. exact update_item_recharges. Qed.
Print Assumptions C16_update_recharges.

(* The cost reported to on_evict for a swept entry is the charged cost. *)
Theorem C16_sweep_reports_charged_cost :
  forall c st h k cf rest acc t charge,
  s_pc st = PTickKey k cf rest acc -> st_expiration (s_store st) k = Some t ->
  negb (t_is_zero t) && t_is_expired (s_now st) t = true ->
  aget k (sl_kc (s_slfu st)) = Some charge ->
  exists st', proc_step c st h = StepOk st' (mk_out PtProcTickAfterPolicy [] RNone) /\
    s_pc st' = PTickAfterPolicy k cf charge rest acc /\ aget k (sl_kc (s_slfu st')) = None /\
    sl_used (s_slfu st') = (sl_used (s_slfu st) - charge)%Z.
Proof. exact sweep_reports_charged_cost. Qed.
Print Assumptions C16_sweep_reports_charged_cost.

(* The cost reported to on_evict for a policy victim equals the cost the victim was charged (proofs
   in PolicyVictims.v, CacheVictims.v): every victim pair the policy returns — whatever the sample
   order, however many refills — carries the charge the key had when the add began ... *)
Theorem C16_victims_report_their_charge :
  forall est oracle s k cost s' V a lg m,
  WF s -> (forall x, (est x < I64MAX)%Z) -> pol_add est oracle s k cost = AddDone s' (Some V) a lg m ->
  forall kv c, In (kv, c) V -> aget kv (sl_kc s) = Some c.
Proof. exact victims_report_their_charge. Qed.
Print Assumptions C16_victims_report_their_charge.

(* ... the processor keeps exactly those pairs ... *)
Theorem C16_admission_victims_carry_their_charges :
  forall c st h k cf cost v exp r st' o vs added cost',
  s_pc st = PIdle -> h_arm h = Some ArmItem -> s_buf st = INew k cf cost v exp :: r -> WF (s_slfu st) ->
  proc_step c st h = StepOk st' o -> s_pc st' = PNewAfterAdd k cf v exp cost' vs added ->
  forall kv cv, In (kv, cv) vs -> aget kv (sl_kc (s_slfu st)) = Some cv.
Proof.
  intros c st h k cf cost v exp r st' o vs added cost' PC HA _.
  exact (admission_victims_carry_their_charges c st h k cf v exp st' o vs added cost' PC HA).
Qed.
Print Assumptions C16_admission_victims_carry_their_charges.

(* ... and the eviction step reports the pair's cost to on_evict. *)
Theorem C16_victim_eviction_reports_that_cost :
  forall c st h vk vc rest st' o,
  s_pc st = PNewVictim (vk, vc) rest -> proc_step c st h = StepOk st' o ->
  forall k cf v cost, In (CbEvict k cf v cost) (o_cbs o) -> k = vk /\ cost = vc.
Proof. exact victim_eviction_reports_that_cost. Qed.
Print Assumptions C16_victim_eviction_reports_that_cost.
