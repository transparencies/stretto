(* Property C08 — every value leaves the cache through exactly one callback.
   Only statements here; proofs are in CacheTokens.v. *)
From StrettoModel Require Import Cache CacheAgree CacheTokens.
Open Scope N_scope.

(* One step of any actor, in any state with distinct store keys in which an admitted New item finds
   its key absent (both hold in every reachable state of a collision-free run): counted with
   multiplicity, the values held before the step plus those the step accepts equal the values held
   after it plus those it hands to callbacks plus those it drops silently — and the only silent
   drops are clear() emptying the store and a get_mut write overwriting a value in place. *)
Theorem C08_step_conserves_values :
  forall c st l st' o x,
  StoreND st -> admit_absent st -> cstep c st l = StepOk st' o ->
  cnt (held st ++ incoming c st l) x = cnt (held st' ++ cb_vals (o_cbs o) ++ lost c st l) x.
Proof. exact token_step. Qed.
Print Assumptions C08_step_conserves_values.

(* Over every collision-free run — any history of inserts, updates, removes, expirations, evictions,
   clears, from any number of threads, under every interleaving with the processor: what entered =
   what is still held + what was handed to callbacks + what clear()/in-place writes dropped. *)
Theorem C08_values_are_conserved :
  forall c mc t now st ins cbs ls x,
  trace c (cinit c mc t now) st ins cbs ls -> cnt ins x = cnt (held st ++ cbs ++ ls) x.
Proof. exact values_are_conserved. Qed.
Print Assumptions C08_values_are_conserved.

(* Never both and never twice: with every written value distinct, a value is in exactly one place. *)
Theorem C08_each_value_is_in_exactly_one_place :
  forall c mc t now st ins cbs ls,
  trace c (cinit c mc t now) st ins cbs ls -> NoDup ins -> NoDup (held st ++ cbs ++ ls).
Proof. exact each_value_is_in_exactly_one_place. Qed.
Print Assumptions C08_each_value_is_in_exactly_one_place.

(* Nothing accepted vanishes. *)
Theorem C08_nothing_vanishes :
  forall c mc t now st ins cbs ls v,
  trace c (cinit c mc t now) st ins cbs ls -> In v ins -> In v (held st) \/ In v cbs \/ In v ls.
Proof. exact nothing_vanishes. Qed.
Print Assumptions C08_nothing_vanishes.

(* A value handed to a callback is no longer held, so no later lookup returns it. *)
Theorem C08_handed_back_is_gone :
  forall c mc t now st ins cbs ls v,
  trace c (cinit c mc t now) st ins cbs ls -> NoDup ins -> In v cbs -> ~ In v (held st).
Proof. exact handed_back_is_gone. Qed.
Print Assumptions C08_handed_back_is_gone.

(* KNOWN FINDING D9: with two keys sharing an index hash the statement is false.  Witness: insert
   A=(1, conflict 1) value 100; remove B=(1, conflict 2) un-charges index 1; insert B value 200 is
   admitted by the policy (index 1 is not charged) and then declined by store.try_insert on the
   conflict mismatch: 200 was accepted (insert returned true), is not held, and no callback got it. *)
Definition d9_cfg : cfg :=
  {| c_ignore_internal := true; c_item_size := 48; c_buf_cap := 8; c_buffer_items := 64; c_metrics := false;
     c_validator := fun _ _ => true; c_coster := fun _ => 0%Z; c_async := false |}.
Definition d9_item : hint := {| h_arm := Some ArmItem; h_oracle := []; h_tick_key := None |}.
Definition d9_run : list label :=
  [LOp 0 (OInsert 1 1 100 1 0 false); LClient 0; LProc d9_item; LProc no_hint; LProc no_hint;
   LOp 0 (ORemove 1 2); LClient 0; LProc d9_item; LProc no_hint;
   LOp 0 (OInsert 1 2 200 1 0 false); LClient 0; LProc d9_item; LProc no_hint; LProc no_hint].

Lemma C08_collision_refuted :
  match tl_new 16 [1; 2; 3; 4] 153 7 with
  | Some t =>
      match crun d9_cfg (cinit d9_cfg 10 t 1000) d9_run with
      | Some (st, os) => (held st, flat_map (fun o => cb_vals (o_cbs o)) os, map o_res (firstn 1 (skipn 10 os)))
      | None => ([], [], [])
      end
  | None => ([], [], [])
  end = ([100], [], [RBool true]).
Proof. vm_compute. reflexivity. Qed.
