(* Property C02 — lookups return only the current value of that same key.
   Only statements here; proofs are in CacheValues.v. *)
From StrettoModel Require Import Cache CacheAgree CacheValues.
Open Scope N_scope.

(* For every history, every number of client threads and every interleaving with the processor, the
   policy worker, the clock and the cleanup tick: after the run, every value that is resident, sits in
   the insert buffer, is carried by a client between its store update and its buffer send, or is held
   by the processor between policy.add and store.try_insert, was written under that very key by an
   insert or a get_mut write of the run. *)
Theorem C02_run_holds_only_written_values :
  forall c mc t now ls st os,
  crun c (cinit c mc t now) ls = Some (st, os) -> WI (fun k v => In (k, v) (writes ls)) st.
Proof. exact run_holds_only_written_values. Qed.
Print Assumptions C02_run_holds_only_written_values.

(* The invariant is inductive over every step of every actor, for any "written under" predicate
   closed under the writes of the labels. *)
Theorem C02_invariant_is_inductive :
  forall P c st l st' o, WI P st -> label_ok P l -> cstep c st l = StepOk st' o -> WI P st'.
Proof. exact WI_step. Qed.
Print Assumptions C02_invariant_is_inductive.

(* Hence a lookup of key k — get or get_mut, whatever the schedule — returns nothing or a value
   written under k: never a value of another key. *)
Theorem C02_lookup_returns_a_value_written_under_its_key :
  forall P c st a k cf w st' o,
  WI P st -> client_of st a = KGetStore k cf w -> cstep c st (LClient a) = StepOk st' o ->
  match o_res o with
  | RGet (Some (v, _)) => P k v
  | RGetMut (Some v) => P k v
  | RGet None | RGetMut None => True
  | _ => False
  end.
Proof. exact lookup_returns_written_value. Qed.
Print Assumptions C02_lookup_returns_a_value_written_under_its_key.

(* An insert of a resident key that the validator does not veto replaces the value in that very
   step — before the Update item is even queued — and touches no other key ... *)
Theorem C02_update_is_immediate :
  forall c st a k cf v cost ttl only e,
  s_closed st = false -> aget k (st_map (s_store st)) = Some e -> conflict_ok cf e = true ->
  c_validator c (e_val e) v = true ->
  exists st', start_op c st a (OInsert k cf v cost ttl only) =
                StepOk st' (mk_out PtInsBeforeSend [CbExit (e_val e)] RNone) /\
    (exists e', aget k (st_map (s_store st')) = Some e' /\ e_val e' = v /\ e_conflict e' = e_conflict e /\
                e_exp e' = {| t_created := s_now st; t_d := ttl |}) /\
    (forall k', k' <> k -> aget k' (st_map (s_store st')) = aget k' (st_map (s_store st))).
Proof. exact update_is_immediate. Qed.
Print Assumptions C02_update_is_immediate.

(* ... and is never rolled back: in every reachable state of a collision-free run, whichever actor
   takes whichever step, a resident value is replaced only by a client's later write to that same
   key (an insert carrying the new value, or the write half of a get_mut) — never by the processor
   applying an older queued item, by eviction, expiry or the policy worker. *)
Theorem C02_value_replaced_only_by_a_later_write_to_its_key :
  forall c mc t now st l st' o k e e',
  reach_cf c (cinit c mc t now) st -> cstep c st l = StepOk st' o ->
  aget k (st_map (s_store st)) = Some e -> aget k (st_map (s_store st')) = Some e' -> e_val e' <> e_val e ->
  (exists a cf cost ttl only, l = LOp a (OInsert k cf (e_val e') cost ttl only)) \/
  (exists a cf, l = LClient a /\ client_of st a = KGetStore k cf (Some (e_val e'))).
Proof. exact reachable_value_replaced_only_by_a_write. Qed.
Print Assumptions C02_value_replaced_only_by_a_later_write_to_its_key.

(* remove(k) takes the entry out of the store in its first step; clear() acknowledged leaves store,
   buffer and policy empty (C11), so nothing written before either can be returned afterwards unless
   it was written again. *)
Theorem C02_remove_is_immediate :
  forall c st a k cf e,
  s_closed st = false -> aget k (st_map (s_store st)) = Some e -> conflict_ok cf e = true ->
  exists st', start_op c st a (ORemove k cf) = StepOk st' (mk_out PtRemBeforeSend [CbExit (e_val e)] RNone) /\
    aget k (st_map (s_store st')) = None /\
    (forall k', k' <> k -> aget k' (st_map (s_store st')) = aget k' (st_map (s_store st))).
Proof. exact remove_is_immediate. Qed.
Print Assumptions C02_remove_is_immediate.

(* non-vacuity: two keys, an update and a lookup: the lookup of key 1 returns the latest value 101 *)
Example C02_nonvacuous :
  match tl_new 16 [1; 2; 3; 4] 153 7 with
  | Some t =>
      let c := {| c_ignore_internal := true; c_item_size := 56; c_buf_cap := 8; c_buffer_items := 64; c_metrics := false;
                  c_validator := fun _ _ => true; c_coster := fun _ => 0%Z; c_async := false |} in
      let item := {| h_arm := Some ArmItem; h_oracle := []; h_tick_key := None |} in
      match crun c (cinit c 10 t 1000)
              [LOp 0 (OInsert 1 0 100 1 0 false); LClient 0; LProc item; LProc no_hint; LProc no_hint;
               LOp 1 (OInsert 2 0 200 1 0 false); LClient 1; LProc item; LProc no_hint; LProc no_hint;
               LOp 0 (OInsert 1 0 101 1 0 false); LOp 1 (OGet 1 0); LClient 1; LClient 0; LProc item] with
      | Some (_, os) => map o_res (firstn 1 (skipn 12 os))
      | None => []
      end
  | None => []
  end = [RGet (Some (101, TtlInf))].
Proof. vm_compute. reflexivity. Qed.
