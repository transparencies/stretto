(* Property C10 — wait() is a barrier and always returns.
   Only statements here; proofs are in CacheInv.v, CacheFifo.v, CacheBarrier.v and CacheProgress.v. *)
From StrettoModel Require Import Cache CacheInv CacheFifo CacheBarrier CacheNoPanic CacheProgress.
Open Scope N_scope.

(* In every reachable state — every history, every interleaving of clients, processor and policy
   worker, either flavour, every buffer size — a client blocked in wait() can either return Ok right
   now (its marker was handled, or drained by clear()/close()), or its marker is in the insert buffer
   of a processor that has not exited.  It is never stranded (the defect repaired by 3cd56a2). *)
Theorem C10_wait_never_stuck :
  forall c mc t now st a id,
  reach c (cinit c mc t now) st -> client_of st a = KWaitBlock id ->
  (exists st', continue_client c st a = StepOk st' (mk_out PtFinish [] (RUnit true))) \/
  (In (IWait id) (s_buf st) /\ s_pc st <> PExited).
Proof. exact wait_never_stuck. Qed.
Print Assumptions C10_wait_never_stuck.

(* Progress: a live processor at its loop head can always take a wait marker at the head of the
   buffer, which releases the waiter. *)
Theorem C10_processor_takes_wait_marker :
  forall c st id r,
  s_pc st = PIdle -> s_buf st = IWait id :: r ->
  exists st', proc_step c st {| h_arm := Some ArmItem; h_oracle := []; h_tick_key := None |} =
                StepOk st' (mk_out PtProcLoop [] RNone) /\ mem_N id (s_done st') = true /\ s_buf st' = r.
Proof. exact processor_takes_wait_marker. Qed.
Print Assumptions C10_processor_takes_wait_marker.

(* The invariant behind it, preserved by every step. *)
Theorem C10_invariant_is_inductive :
  forall c st l st' o, WaitInv st -> cstep c st l = StepOk st' o -> WaitInv st'.
Proof. exact WaitInv_step. Qed.
Print Assumptions C10_invariant_is_inductive.

(* ---- the barrier (proofs in CacheFifo.v) ---- *)

(* The insert buffer is a FIFO that only the processor consumes: for every step of every actor the
   buffer is unchanged, or a client appended one item, or the processor took the head item, or the
   processor drained it whole (clear / stop). *)
Theorem C10_buffer_is_fifo :
  forall c st l st' o, cstep c st l = StepOk st' o -> buf_change st l st'.
Proof. exact buffer_is_fifo. Qed.
Print Assumptions C10_buffer_is_fifo.

(* A wait marker is released only by the processor: when it takes the marker at the head of the
   buffer — so everything that was queued ahead of it, in particular everything the same thread sent
   before calling wait(), has been handled — or by a drain for clear() / at the stop request, which
   discards what was ahead; (clear acknowledgements share the id space). *)
Theorem C10_marker_released_only_by :
  forall c st l st' o id,
  cstep c st l = StepOk st' o -> mem_N id (s_done st) = false -> mem_N id (s_done st') = true -> release_cause st l id.
Proof. exact marker_released_only_by. Qed.
Print Assumptions C10_marker_released_only_by.

(* ---- the barrier end to end (proofs in CacheBarrier.v) ---- *)

(* Identifiers of wait markers and clear signals are fresh: in every reachable state every
   identifier in use (a marker in the buffer, a pending clear signal, the clear being performed, a
   released marker or acknowledged clear) is below the allocation counter. *)
Theorem C10_identifiers_are_fresh :
  forall c mc t now st, reach c (cinit c mc t now) st -> IdBound st.
Proof. exact reachable_IdBound. Qed.
Print Assumptions C10_identifiers_are_fresh.

(* The buffer shrinks only when the processor, at its loop head, takes the head item or drains the
   buffer for clear() / stop: this is what the slot count of the next theorem counts. *)
Theorem C10_slots_are_consumed_only_by_the_processor :
  forall c st l st' o,
  cstep c st l = StepOk st' o -> (0 < consumed st st')%nat ->
  exists h, l = LProc h /\ s_pc st = PIdle /\
    ((h_arm h = Some ArmItem /\ exists it, s_buf st = it :: s_buf st') \/
     ((h_arm h = Some ArmClear \/ h_arm h = Some ArmStop) /\ s_buf st' = [])).
Proof. exact consumed_only_by_processor. Qed.
Print Assumptions C10_slots_are_consumed_only_by_the_processor.

(* THE BARRIER.  A thread inside wait(), past its is_closed check (KWaitStart: whatever happened
   between the check and now, a close() included), queues its marker in any reachable state st0 —
   any history, schedule, flavour, buffer size.  Follow any continuation of the run (btrace), counting
   down the slots that were in the buffer at that moment as the processor consumes them.  Whenever
   the marker has been released, i.e. wait() can return Ok, the count is zero: every item queued
   before the marker — in particular every insert and remove the same thread issued before calling
   wait() — has been taken by the processor, or discarded by a drain for clear() / close(). *)
Theorem C10_wait_is_a_barrier :
  forall c mc t now st0 a st1 id st n,
  reach c (cinit c mc t now) st0 -> client_of st0 a = KWaitStart ->
  cstep c st0 (LClient a) = StepOk st1 (mk_out PtWaitAfterSend [] RNone) -> client_of st1 a = KWaitAfterSend id ->
  btrace c st1 (length (s_buf st0)) st n ->
  mem_N id (s_done st) = true -> n = 0%nat.
Proof. exact wait_is_a_barrier. Qed.
Print Assumptions C10_wait_is_a_barrier.

(* ... and the release happens while the processor is at its loop head, between two items: what it
   took before the marker has been handled to the end (the per-item effects are C04's end-to-end
   theorems). *)
Theorem C10_marker_released_between_items :
  forall c st l st' o id n,
  ahead st id n -> cstep c st l = StepOk st' o -> mem_N id (s_done st') = true ->
  s_pc st = PIdle /\ exists h, l = LProc h.
Proof. exact marker_released_between_items. Qed.
Print Assumptions C10_marker_released_between_items.

(* non-vacuity: insert, then wait(); the count is 1 while the insert is still queued, the marker is
   not released before the processor has taken the insert, and is released with count 0 *)
Example C10_barrier_nonvacuous :
  match tl_new 3 [1; 2; 3; 4] 29 7 with
  | Some t =>
      let c := {| c_ignore_internal := true; c_item_size := 56; c_buf_cap := 4; c_buffer_items := 0; c_metrics := true;
                  c_validator := fun _ _ => true; c_coster := fun _ => 0%Z; c_async := false |} in
      let item := {| h_arm := Some ArmItem; h_oracle := []; h_tick_key := None |} in
      match crun c (cinit c 100 t 1000) [LOp 0 (OInsert 1 0 100 1 0 false); LClient 0; LOp 0 OWait] with
      | Some (st0, _) =>
          match cstep c st0 (LClient 0) with
          | StepOk st1 o =>
              (length (s_buf st0), o, client_of st1 0,
               match brun c st1 1 [LClient 0] with Some (s, n) => Some (mem_N 0 (s_done s), n) | None => None end,
               match brun c st1 1 [LClient 0; LProc item; LProc no_hint; LProc no_hint] with Some (s, n) => Some (mem_N 0 (s_done s), n) | None => None end,
               match brun c st1 1 [LClient 0; LProc item; LProc no_hint; LProc no_hint; LProc item] with Some (s, n) => Some (mem_N 0 (s_done s), n) | None => None end)
          | _ => (0%nat, mk_out PtBlocked [] RNone, KIdle, None, None, None)
          end
      | None => (0%nat, mk_out PtBlocked [] RNone, KIdle, None, None, None)
      end
  | None => (0%nat, mk_out PtBlocked [] RNone, KIdle, None, None, None)
  end = (1%nat, mk_out PtWaitAfterSend [] RNone, KWaitAfterSend 0,
         Some (false, 1%nat), Some (false, 0%nat), Some (true, 0%nat)).
Proof. vm_compute. reflexivity. Qed.

(* remove() always queues its Delete marker behind everything already in the buffer before it
   returns (or the processor has exited): it reports Ok and no other outcome exists — no error, no
   panic, no lost marker (the defect repaired by 7541841), so "removed ones are gone" once the
   barrier of C10_wait_is_a_barrier has passed. *)
Theorem C10_remove_queues_its_marker :
  forall c st a k cf st' o,
  client_of st a = KRemSend k cf -> cstep c st (LClient a) = StepOk st' o ->
  o = mk_out PtFinish [] (RUnit true) /\ client_of st' a = KIdle /\
  (s_buf st' = s_buf st ++ [IDelete k cf] \/ (s_pc st = PExited /\ s_buf st' = s_buf st)).
Proof. exact remove_queues_its_marker. Qed.
Print Assumptions C10_remove_queues_its_marker.

(* ... and a remove() waiting for room is never stranded: it can finish right now, or the buffer is
   full in front of a live processor. *)
Theorem C10_remove_never_stuck :
  forall c st a k cf,
  client_of st a = KRemSend k cf ->
  (exists st', cstep c st (LClient a) = StepOk st' (mk_out PtFinish [] (RUnit true))) \/
  (s_pc st <> PExited /\ c_buf_cap c <= N.of_nat (length (s_buf st))).
Proof. exact remove_never_stuck. Qed.
Print Assumptions C10_remove_never_stuck.

(* ---- progress of the processor (proofs in PolicyLive.v, CacheProgress.v) ----
   "wait() always returns": a waiter is never stranded (C10_wait_never_stuck: its marker is ahead of
   a live processor), and the processor can always move on — at its loop head it can take the head
   item, whatever it is and whatever the policy holds (for a New item the admission decision comes
   to an end under the canonical legal choice of eviction samples), and in the middle of an item, a
   clear or a sweep it is never blocked.  What remains an assumption is only that select! eventually
   takes the item arm (weak fairness of crossbeam / futures). *)
Theorem C10_processor_can_take_the_head_item :
  forall c mc t now st it r,
  reach c (cinit c mc t now) st -> s_pc st = PIdle -> s_buf st = it :: r ->
  exists h st' o, h_arm h = Some ArmItem /\ proc_step c st h = StepOk st' o /\ s_buf st' = r.
Proof. exact reachable_processor_can_take_the_head_item. Qed.
Print Assumptions C10_processor_can_take_the_head_item.

Theorem C10_processor_never_blocks_mid_item :
  forall c st,
  NP st -> SO st -> s_pc st <> PIdle -> s_pc st <> PExited ->
  N.of_nat (length (s_start st)) <= Consts.NUM_TO_KEEP ->
  exists st' o, proc_step c st (mid_hint (s_pc st)) = StepOk st' o.
Proof. intros c st _. exact (processor_never_blocks_mid_item c st). Qed.
Print Assumptions C10_processor_never_blocks_mid_item.
