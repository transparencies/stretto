(* Property C19 — AsyncCache behaves exactly like Cache.
   Only statements here; proofs are in CacheFlavour.v.  The model has ONE transition function for both
   flavours (cfg.c_async), so every theorem of the other properties is already a theorem about both;
   what is stated here is where, exactly, the flavour is consulted at all. *)
From StrettoModel Require Import Cache CacheFlavour.
Open Scope N_scope.

(* Every step of every actor — same state in, same label — has the same outcome (next state,
   callbacks, result) in both flavours, except at exactly these points: a get-ring flush that finds
   SYNC_POLICY_QUEUE_CAP batches already queued (the sync policy drops, the async one queues), and
   the two stop handshakes of close() (sync rendezvous, async buffered message).  (Before fix 7541841
   a remove() finding the insert buffer full was a third point: sync gave up, async awaits.) *)
Theorem C19_flavours_agree_step_by_step :
  forall c st l,
  flavour_insensitive c st l -> cstep (with_flavour c true) st l = cstep (with_flavour c false) st l.
Proof. exact flavours_agree. Qed.
Print Assumptions C19_flavours_agree_step_by_step.

(* The processor (impl_cache_processor, the cleanup, clear) and the policy worker (impl_policy) never
   consult the flavour: item handling, eviction, sweeping, clearing are the same function. *)
Theorem C19_processor_is_flavour_independent :
  forall c b st h, proc_step (with_flavour c b) st h = proc_step c st h.
Proof. exact proc_step_flavour. Qed.
Print Assumptions C19_processor_is_flavour_independent.

Theorem C19_policy_worker_is_flavour_independent :
  forall c b st h, worker_step (with_flavour c b) st h = worker_step c st h.
Proof. exact worker_step_flavour. Qed.
Print Assumptions C19_policy_worker_is_flavour_independent.

(* The stop handshake of close() differs in mechanism only: from the same state, the sync
   rendezvous (offer; processor takes the stop arm; closer resumes) and the async buffered stop
   message (send; processor takes the stop arm) end in the SAME state, having fired the same
   callbacks. *)
Theorem C19_close_handshake_agrees :
  forall c st a h,
  client_of st a = KCloseBeforeStop -> s_pc st = PIdle -> s_stop_msgs st = 0 -> h_arm h = Some ArmStop ->
  exists st1 cbs,
    crun (with_flavour c false) st [LClient a; LProc h; LClient a] =
      Some (st1, [mk_out PtBlocked [] RNone; mk_out PtProcExit cbs RNone; mk_out PtCloseBeforePolicy [] RNone]) /\
    crun (with_flavour c true) st [LClient a; LProc h] =
      Some (st1, [mk_out PtCloseBeforePolicy [] RNone; mk_out PtProcExit cbs RNone]).
Proof. exact close_handshake_agrees. Qed.
Print Assumptions C19_close_handshake_agrees.

(* With quiescence between operations the policy's queue never holds more than one batch and the
   insert buffer is empty when a remove() sends its Delete, so the first two exceptions cannot occur:
   a lookup's flush is flavour-insensitive whenever fewer than SYNC_POLICY_QUEUE_CAP batches wait. *)
Theorem C19_flush_agrees_below_queue_cap :
  forall c st k,
  N.of_nat (length (s_pqueue st)) < Consts.SYNC_POLICY_QUEUE_CAP ->
  ring_push (with_flavour c true) st k = ring_push (with_flavour c false) st k.
Proof. exact ring_push_flavour. Qed.
Print Assumptions C19_flush_agrees_below_queue_cap.
