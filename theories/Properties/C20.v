(* Property C20 — every accepted configuration yields a working cache.
   Only statements here; proofs are in Keys.v, TinyLFUProofs.v, PolicyProofs.v, PolicyLive.v,
   CacheNoPanic.v, CacheInv.v, CacheNoDeadlock.v, CacheGlobalProgress.v. *)
From StrettoModel Require Import TinyLFUProofs PolicyProofs Cache Keys CacheInv CacheNoPanic PolicyLive CacheNoDeadlock CacheGlobalProgress.
Open Scope N_scope.

(* The builder rejects exactly zero num_counters, zero max_cost, zero buffer size, with that error
   and in that order of precedence; everything else — negative max_cost included — is accepted. *)
Theorem C20_builder_validation :
  forall nc mc bs,
  (nc = 0 -> validate nc mc bs = Some InvalidNumCounters) /\
  (nc <> 0 -> mc = 0%Z -> validate nc mc bs = Some InvalidMaxCost) /\
  (nc <> 0 -> mc <> 0%Z -> bs = 0 -> validate nc mc bs = Some InvalidBufferSize) /\
  (nc <> 0 -> mc <> 0%Z -> bs <> 0 -> validate nc mc bs = None).
Proof. exact builder_validation. Qed.
Print Assumptions C20_builder_validation.

(* Every num_counters >= 1 — 1, 2, 3, the non-powers of two — dimensions a well-formed sketch (even
   row width >= 2 counters, mask = width - 1, rows of width/2 bytes) and a well-formed doorkeeper
   (at least 512 bits, a power of two of them) on which estimate never fails. *)
Theorem C20_every_width_builds :
  forall ctrs seeds entries locs,
  1 <= ctrs -> length seeds = SK_DEPTH ->
  N.log2_up (N.max entries 512) <= 64 -> locs * 2 ^ N.log2_up (N.max entries 512) <= two64 ->
  exists t, tl_new ctrs seeds entries locs = Some t /\ tl_wf t /\ tl_samples t = ctrs /\ tl_w t = 0 /\
    forall h, h < two64 -> 1 <= locs -> tl_estimate t h = Some 0.
Proof. exact tl_new_spec. Qed.
Print Assumptions C20_every_width_builds.

(* On such a cache, for every configuration (max_cost of either sign, any insert-buffer size, any
   buffer_items including 0 and 1, metrics on or off, internal cost ignored or not, either flavour),
   every history of operations on u64 key hashes, every clock advance and tick, and every schedule
   of clients, processor and policy worker: no step panics — neither in the caller nor in a
   background worker. *)
Theorem C20_cache_never_panics :
  forall c mc ctrs seeds entries locs now,
  1 <= ctrs -> length seeds = SK_DEPTH ->
  N.log2_up (N.max entries 512) <= 64 -> locs * 2 ^ N.log2_up (N.max entries 512) <= two64 ->
  exists t, tl_new ctrs seeds entries locs = Some t /\
    forall st, reach_u64 c (cinit c mc t now) st ->
    forall l w, label_u64 l -> cstep c st l <> StepPanic w.
Proof. exact cache_never_panics. Qed.
Print Assumptions C20_cache_never_panics.

(* The invariant behind it — sketch and doorkeeper well-formed, every stored deadline and every tracked
   admission time taken at or before "now", ring and queue hold u64 hashes — is inductive over every
   step of every actor. *)
Theorem C20_invariant_is_inductive :
  forall c st l st' o, NP st -> label_u64 l -> cstep c st l = StepOk st' o -> NP st'.
Proof. exact NP_step. Qed.
Print Assumptions C20_invariant_is_inductive.

Theorem C20_admission_times_invariant :
  forall c st l st' o, SO st -> cstep c st l = StepOk st' o -> SO st'.
Proof. exact SO_step. Qed.
Print Assumptions C20_admission_times_invariant.

Theorem C20_no_step_panics :
  forall c st l w, NP st -> SO st -> label_u64 l -> cstep c st l <> StepPanic w.
Proof. intros c st l w N S _. exact (no_step_panics c st l w N S). Qed.
Print Assumptions C20_no_step_panics.

(* The eviction loop, whatever samples the policy's hash map yields (any legal oracle), never
   indexes an empty sample. *)
Theorem C20_eviction_loop_never_panics :
  forall est oracle s k cost, (est k < I64MAX)%Z -> pol_add est oracle s k cost <> AddPanic.
Proof. exact pol_add_no_panic. Qed.
Print Assumptions C20_eviction_loop_never_panics.

(* Operations complete: a client blocked in wait() is never stranded (its marker is released or still
   ahead of a live processor), in every reachable state. *)
Theorem C20_wait_completes :
  forall c mc t now st a id,
  reach c (cinit c mc t now) st -> client_of st a = KWaitBlock id ->
  (exists st', continue_client c st a = StepOk st' (mk_out PtFinish [] (RUnit true))) \/
  (In (IWait id) (s_buf st) /\ s_pc st <> PExited).
Proof. exact wait_never_stuck. Qed.
Print Assumptions C20_wait_completes.

(* non-vacuity: a width-3, max_cost -5, buffer-1 cache runs a small history *)
Example C20_tiny_config_runs :
  match tl_new 3 [1; 2; 3; 4] 29 7 with
  | Some t =>
      let c := {| c_ignore_internal := false; c_item_size := 56; c_buf_cap := 1; c_buffer_items := 0; c_metrics := true;
                  c_validator := fun _ _ => true; c_coster := fun _ => 0%Z; c_async := false |} in
      match crun c (cinit c (-5) t 1000)
              [LOp 0 (OInsert 1 0 100 1 0 false); LClient 0;
               LProc {| h_arm := Some ArmItem; h_oracle := []; h_tick_key := None |}; LProc no_hint; LProc no_hint;
               LOp 0 (OGet 1 0); LClient 0] with
      | Some (_, os) => length os
      | None => 0%nat
      end
  | None => 0%nat
  end = 7%nat.
Proof. vm_compute. reflexivity. Qed.

(* Operations complete: the admission decision of LFUPolicy::add always comes to an end.  For every
   policy state and every newcomer there is a legal sequence of sample refills (the canonical one)
   under which the eviction loop returns — it never runs for ever, although a refill can re-add keys
   that are already sampled and evicting a duplicated key leaves a stale copy that frees nothing
   (measure: six times the charged keys plus the stale sample entries; proof in PolicyLive.v). *)
Theorem C20_admission_decision_terminates :
  forall est s k cost,
  (forall x, (est x < I64MAX)%Z) -> WF s ->
  exists oracle,
    match pol_add est oracle s k cost with AddDone _ _ _ _ _ => True | AddPanic => True | _ => False end.
Proof. exact pol_add_returns. Qed.
Print Assumptions C20_admission_decision_terminates.

(* Operations complete: the three calls of the API that can wait for the processor — wait(), clear()
   and remove() — are never part of a deadlock.  In every reachable state (any history, schedule,
   flavour, accepted configuration), whenever such a call cannot return yet, the call itself or the
   processor can make a step: the processor takes the head item, takes the clear request, or goes on
   with what it is doing.  With weak fairness of the processor's select! the call returns.  (The
   hypothesis on the admission-time table excludes only the pruning of more than NUM_TO_KEEP tracked
   keys, which the model does not cover.) *)
Theorem C20_blocked_call_has_a_moving_processor :
  forall c mc t now st a,
  tl_wf t -> 0 < c_buf_cap c ->
  reach_u64 c (cinit c mc t now) st ->
  N.of_nat (length (s_start st)) <= Consts.NUM_TO_KEEP ->
  blocked_call (client_of st a) ->
  (exists st' o, cstep c st (LClient a) = StepOk st' o) \/
  (exists h st' o, cstep c st (LProc h) = StepOk st' o).
Proof.
  intros c mc t now st a _ CAP RU.
  exact (blocked_call_has_a_moving_processor c mc t now st a CAP (reach_u64_reach c _ st RU)).
Qed.
Print Assumptions C20_blocked_call_has_a_moving_processor.

(* NO REACHABLE DEADLOCK.  In every reachable state of either flavour — any history, schedule,
   accepted configuration — in which some client operation is in flight, somebody can move: that
   client itself (every point of every operation other than the five waiting points is a total
   step), the cache processor, or the policy worker.  With weak fairness of the two select! loops
   every operation therefore completes. *)
Theorem C20_no_reachable_deadlock :
  forall c mc t now st a,
  tl_wf t -> 0 < c_buf_cap c ->
  reach_u64 c (cinit c mc t now) st ->
  N.of_nat (length (s_start st)) <= Consts.NUM_TO_KEEP ->
  client_of st a <> KIdle ->
  (exists st' o, cstep c st (LClient a) = StepOk st' o) \/
  (exists h st' o, cstep c st (LProc h) = StepOk st' o) \/
  (exists h st' o, cstep c st (LWorker h) = StepOk st' o).
Proof. exact no_reachable_deadlock. Qed.
Print Assumptions C20_no_reachable_deadlock.

(* non-vacuity of the deadlock theorems: a concrete reachable state meets all their hypotheses with a
   client blocked in wait() behind an insert the processor has not taken yet *)
Example C20_no_reachable_deadlock_nonvacuous :
  let c := {| c_ignore_internal := true; c_item_size := 56; c_buf_cap := 4; c_buffer_items := 0; c_metrics := true;
              c_validator := fun _ _ => true; c_coster := fun _ => 0%Z; c_async := false |} in
  exists t st,
    tl_new 3 [1; 2; 3; 4] 29 7 = Some t /\ tl_wf t /\ 0 < c_buf_cap c /\
    reach_u64 c (cinit c 100 t 1000) st /\
    N.of_nat (length (s_start st)) <= Consts.NUM_TO_KEEP /\
    client_of st 0 = KWaitBlock 0 /\ s_pc st = PIdle /\ length (s_buf st) = 2%nat /\
    continue_client c st 0 = StepBlocked.
Proof. exact no_reachable_deadlock_nonvacuous. Qed.
