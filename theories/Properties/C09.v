(* Property C09 — conditional writes: insert_if_present and UpdateValidator are honoured.
   Only statements here; proofs are in StoreProofs.v and CacheLocal.v.  "Absent" = not resident in
   the store (an elapsed-but-unswept entry is resident and is revived, as in Ristretto). *)
From StrettoModel Require Import StoreProofs Cache CacheLocal.
Open Scope N_scope.

(* insert_if_present on a non-resident index returns false and leaves the ENTIRE cache state
   unchanged — in any state, e.g. also while a New item for the same key is still buffered. *)
Theorem C09_if_present_absent_is_noop :
  forall c st a k cf v cost,
  s_closed st = false -> aget k (st_map (s_store st)) = None ->
  start_op c st a (OInsert k cf v cost 0 true) = StepOk st (mk_out PtFinish [] (RBool false)).
Proof. exact if_present_absent_is_noop. Qed.
Print Assumptions C09_if_present_absent_is_noop.

(* On a resident index whose validator accepts, it behaves exactly as insert without TTL. *)
Theorem C09_if_present_resident_is_update :
  forall c st a k cf v cost e,
  s_closed st = false -> aget k (st_map (s_store st)) = Some e -> conflict_ok cf e = true ->
  c_validator c (e_val e) v = true ->
  start_op c st a (OInsert k cf v cost 0 true) = start_op c st a (OInsert k cf v cost 0 false).
Proof. exact if_present_resident_is_update. Qed.
Print Assumptions C09_if_present_resident_is_update.

(* For every validator predicate: a vetoed write leaves value, deadline and expiry index exactly as
   they were, whichever insert variant was used, and fires no callback ... *)
Theorem C09_veto_keeps_value_and_ttl :
  forall c st a k cf v cost ttl only e,
  s_closed st = false -> aget k (st_map (s_store st)) = Some e -> conflict_ok cf e = true ->
  c_validator c (e_val e) v = false ->
  exists st' o, start_op c st a (OInsert k cf v cost ttl only) = StepOk st' o /\ s_store st' = s_store st /\
                o_cbs o = [].
Proof. exact veto_client_segment. Qed.
Print Assumptions C09_veto_keeps_value_and_ttl.

(* ... and so does the processor when it later handles the New item a vetoed plain insert produced
   (the key is charged: the policy refuses, on_reject gets the vetoed value, the store is untouched). *)
Theorem C09_refused_item_keeps_store :
  forall c st h k cf v exp cost victims,
  s_pc st = PNewAfterAdd k cf v exp cost victims false ->
  exists st', proc_step c st h = StepOk st' (mk_out PtProcNewAfterStore [CbReject k cf v cost] RNone) /\
              s_store st' = s_store st /\ s_slfu st' = s_slfu st.
Proof. exact reject_segment_keeps_store. Qed.
Print Assumptions C09_refused_item_keeps_store.

Theorem C09_store_level_veto :
  forall vld s k v c t e,
  aget k (st_map s) = Some e -> conflict_ok c e = true -> vld (e_val e) v = false ->
  st_try_update vld s k v c t = (s, UReject) /\ st_try_insert vld s k v c t = s.
Proof. exact veto_keeps_everything. Qed.
Print Assumptions C09_store_level_veto.
