(* Property C04 — below capacity the cache is an exact map: nothing is lost.
   Only statements here; proofs are in CacheMap.v. *)
From StrettoModel Require Import Cache CacheAgree CacheMap.
Open Scope N_scope.

(* (1) Retention, for every step of every actor in every state: a resident entry leaves the store
   only through a remove() of its key, a queued Delete of its key, an eviction, a sweep, or clear().
   Inserts, updates, lookups, the policy worker, the clock, ticks that find nothing due — none of
   them removes anything, whatever other keys they touch. *)
Theorem C04_entry_leaves_only_by :
  forall c st l st' o k e,
  cstep c st l = StepOk st' o -> aget k (st_map (s_store st)) = Some e -> aget k (st_map (s_store st')) = None ->
  leave_cause st l k.
Proof. exact entry_leaves_only_by. Qed.
Print Assumptions C04_entry_leaves_only_by.

(* (2) Below capacity there are no evictions and no refusals: with room for the item the policy
   neither samples nor evicts — whatever else is charged and whatever the popularity estimates ... *)
Theorem C04_room_means_no_victims :
  forall est oracle s k cost s' v a lg m,
  (0 <= sl_room_left s cost)%Z -> pol_add est oracle s k cost = AddDone s' v a lg m -> v = None /\ lg = [].
Proof. exact room_means_no_victims. Qed.
Print Assumptions C04_room_means_no_victims.

(* ... a new key is admitted ... *)
Theorem C04_below_capacity_new_key_is_admitted :
  forall c st h k cf cost v exp r,
  s_pc st = PIdle -> h_arm h = Some ArmItem -> s_buf st = INew k cf cost v exp :: r ->
  aget k (sl_kc (s_slfu st)) = None ->
  (internal_cost c cost <= sl_max (s_slfu st))%Z -> (0 <= sl_room_left (s_slfu st) (internal_cost c cost))%Z ->
  exists st', proc_step c st h = StepOk st' (mk_out PtProcNewAfterAdd [] RNone) /\
    s_pc st' = PNewAfterAdd k cf v exp (internal_cost c cost) [] true /\
    s_slfu st' = sl_increment (s_slfu st) k (internal_cost c cost) /\
    s_store st' = s_store st /\ s_buf st' = r /\ s_start st' = s_start st /\ s_clients st' = s_clients st.
Proof. exact below_capacity_new_key_is_admitted. Qed.
Print Assumptions C04_below_capacity_new_key_is_admitted.

(* ... and stored with its value and deadline, touching no other key. *)
Theorem C04_admitted_key_becomes_resident :
  forall c st h k cf v exp cost vs,
  s_pc st = PNewAfterAdd k cf v exp cost vs true -> aget k (st_map (s_store st)) = None ->
  N.of_nat (length (s_start st)) <= Consts.NUM_TO_KEEP ->
  exists st', proc_step c st h = StepOk st' (mk_out PtProcNewAfterStore [] RNone) /\
    aget k (st_map (s_store st')) = Some {| e_conflict := cf; e_val := v; e_exp := exp |} /\
    (forall k', k' <> k -> aget k' (st_map (s_store st')) = aget k' (st_map (s_store st))) /\
    s_slfu st' = s_slfu st /\ s_pc st' = PNewAfterStore vs /\ s_buf st' = s_buf st /\ s_clients st' = s_clients st.
Proof. exact admitted_key_becomes_resident. Qed.
Print Assumptions C04_admitted_key_becomes_resident.

(* (3) Nothing is swept early: the sweeper goes on to remove a key only if the entry it looked at had
   a TTL and the TTL had elapsed (and the due buckets are exactly those whose second has passed: C05). *)
Theorem C04_sweep_takes_only_expired :
  forall c st h k cf rest acc st' o cost rest' acc',
  s_pc st = PTickKey k cf rest acc -> proc_step c st h = StepOk st' o -> s_pc st' = PTickAfterPolicy k cf cost rest' acc' ->
  exists t, st_expiration (s_store st) k = Some t /\ t_is_zero t = false /\ t_is_expired (s_now st) t = true.
Proof. exact sweep_takes_only_expired. Qed.
Print Assumptions C04_sweep_takes_only_expired.

(* (4) End to end, from any quiescent state, each operation run to quiescence changes the map exactly
   as a map with TTLs would, and nothing else.  Insert of a key that is neither resident nor
   charged, with room for it: returns true; afterwards the key maps to (value, now + ttl), every
   other key is untouched, the key is charged cost (or Coster) + overhead, no callback fired. *)
Theorem C04_insert_new_key_end_to_end :
  forall c st a k cf v cost ttl,
  s_closed st = false -> quiescent st -> 0 < c_buf_cap c ->
  aget k (st_map (s_store st)) = None -> aget k (sl_kc (s_slfu st)) = None ->
  N.of_nat (length (s_start st)) <= Consts.NUM_TO_KEEP ->
  let cost' := internal_cost c (cost + (if (cost =? 0)%Z then c_coster c v else 0))%Z in
  (cost' <= sl_max (s_slfu st))%Z -> (0 <= sl_room_left (s_slfu st) cost')%Z ->
  exists st' os,
    crun c st [LOp a (OInsert k cf v cost ttl false); LClient a; LProc item_hint; LProc no_hint; LProc no_hint] = Some (st', os) /\
    map o_res os = [RNone; RBool true; RNone; RNone; RNone] /\ flat_map o_cbs os = [] /\
    s_buf st' = [] /\ s_pc st' = PIdle /\ (forall b, client_of st' b = KIdle) /\
    aget k (st_map (s_store st')) = Some {| e_conflict := cf; e_val := v; e_exp := {| t_created := s_now st; t_d := ttl |} |} /\
    (forall k', k' <> k -> aget k' (st_map (s_store st')) = aget k' (st_map (s_store st))) /\
    aget k (sl_kc (s_slfu st')) = Some cost' /\
    (forall k', k' <> k -> aget k' (sl_kc (s_slfu st')) = aget k' (sl_kc (s_slfu st))) /\
    sl_used (s_slfu st') = (sl_used (s_slfu st) + cost')%Z.
Proof. exact insert_new_key_end_to_end. Qed.
Print Assumptions C04_insert_new_key_end_to_end.

(* Re-insert of a resident key — with or without TTL, switching either way: value and deadline are
   replaced, the old value goes to on_exit, no other key changes. *)
Theorem C04_update_end_to_end :
  forall c st a k cf v cost ttl only e p,
  s_closed st = false -> quiescent st -> 0 < c_buf_cap c ->
  aget k (st_map (s_store st)) = Some e -> conflict_ok cf e = true -> c_validator c (e_val e) v = true ->
  aget k (sl_kc (s_slfu st)) = Some p ->
  let cost' := (internal_cost c cost + (if (cost =? 0)%Z then c_coster c v else 0))%Z in
  exists st' os,
    crun c st [LOp a (OInsert k cf v cost ttl only); LClient a; LProc item_hint] = Some (st', os) /\
    map o_res os = [RNone; RBool true; RNone] /\ flat_map o_cbs os = [CbExit (e_val e)] /\
    s_buf st' = [] /\ s_pc st' = PIdle /\ (forall b, client_of st' b = KIdle) /\
    aget k (st_map (s_store st')) = Some {| e_conflict := e_conflict e; e_val := v; e_exp := {| t_created := s_now st; t_d := ttl |} |} /\
    (forall k', k' <> k -> aget k' (st_map (s_store st')) = aget k' (st_map (s_store st))) /\
    aget k (sl_kc (s_slfu st')) = Some cost' /\
    (forall k', k' <> k -> aget k' (sl_kc (s_slfu st')) = aget k' (sl_kc (s_slfu st))).
Proof. exact update_end_to_end. Qed.
Print Assumptions C04_update_end_to_end.

(* Remove of a resident key: gone from the map and from the charges, on_exit gets the value, no
   other key changes. *)
Theorem C04_remove_end_to_end :
  forall c st a k cf e p,
  s_closed st = false -> quiescent st -> 0 < c_buf_cap c ->
  aget k (st_map (s_store st)) = Some e -> conflict_ok cf e = true -> aget k (sl_kc (s_slfu st)) = Some p ->
  exists st' os,
    crun c st [LOp a (ORemove k cf); LClient a; LProc item_hint; LProc no_hint] = Some (st', os) /\
    map o_res os = [RNone; RUnit true; RNone; RNone] /\ flat_map o_cbs os = [CbExit (e_val e)] /\
    s_buf st' = [] /\ s_pc st' = PIdle /\ (forall b, client_of st' b = KIdle) /\
    aget k (st_map (s_store st')) = None /\
    (forall k', k' <> k -> aget k' (st_map (s_store st')) = aget k' (st_map (s_store st))) /\
    aget k (sl_kc (s_slfu st')) = None /\
    (forall k', k' <> k -> aget k' (sl_kc (s_slfu st')) = aget k' (sl_kc (s_slfu st))) /\
    sl_used (s_slfu st') = (sl_used (s_slfu st) - p)%Z.
Proof. exact remove_end_to_end. Qed.
Print Assumptions C04_remove_end_to_end.

(* A lookup returns exactly what the map says (value and remaining TTL of a live entry, nothing
   otherwise) and changes neither the map nor the charges. *)
Theorem C04_lookup_end_to_end :
  forall c st a k cf,
  s_closed st = false -> client_of st a = KIdle ->
  (forall e, aget k (st_map (s_store st)) = Some e -> t_created (e_exp e) <= s_now st) ->
  exists st' os,
    crun c st [LOp a (OGet k cf); LClient a] = Some (st', os) /\
    s_store st' = s_store st /\ s_slfu st' = s_slfu st /\ s_buf st' = s_buf st /\ client_of st' a = KIdle /\
    map o_res os =
      [RNone;
       match st_get (s_now st) (s_store st) k cf with
       | Some e => match t_get_ttl (s_now st) (e_exp e) with Some d => RGet (Some (e_val e, d)) | None => RNone end
       | None => RGet None
       end] /\
    (forall e, st_get (s_now st) (s_store st) k cf = Some e -> exists d, t_get_ttl (s_now st) (e_exp e) = Some d).
Proof. exact lookup_end_to_end. Qed.
Print Assumptions C04_lookup_end_to_end.
