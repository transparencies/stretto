(* Property C01 — charged cost of resident entries never exceeds max_cost.
   Only statements here; proofs are in PolicyProofs.v and CacheProofs.v. *)
From StrettoModel Require Import PolicyProofs Cache CacheProofs.
Open Scope Z_scope.

(* For every history of policy operations (add / update / remove / clear / update_max_cost, any
   popularity function, any legal sampling order, non-negative costs), in every reached state:
   the charged total equals the sum of the per-entry charges, every key is charged at most once,
   and whenever something is charged the total exceeds max_cost by at most the slack that
   in-place updates and a lowered max_cost have added since the last admission. *)
Theorem C01_total_is_sum_and_bounded_by_slack :
  forall (mc : Z) (ops : list pop) (st : pstate),
    Forall op_nonneg ops ->
    prun {| ps := sl_new mc; slack := 0 |} ops = Some st ->
    (sl_used (ps st) = asum (sl_kc (ps st)) /\ NoDup (akeys (sl_kc (ps st)))) /\
    (forall k c, aget k (sl_kc (ps st)) = Some c -> 0 <= c) /\
    0 <= slack st /\
    (sl_kc (ps st) = [] \/ sl_used (ps st) <= sl_max (ps st) + slack st).
Proof. exact overshoot_is_update_slack. Qed.
Print Assumptions C01_total_is_sum_and_bounded_by_slack.

(* Every admission of a new key re-establishes total <= max_cost and charges exactly its cost. *)
Theorem C01_admission_reestablishes_bound :
  forall est oracle s k cost s' v l m,
    WF s -> NonNeg s ->
    pol_add est oracle s k cost = AddDone s' v true l m ->
    sl_used s' <= sl_max s' /\ aget k (sl_kc s') = Some cost /\ cost <= sl_max s' /\
    aget k (sl_kc s) = None.
Proof. intros est oracle s k cost s' v l m _ _. exact (add_admits_under_max est oracle s k cost s' v l m). Qed.
Print Assumptions C01_admission_reestablishes_bound.

(* An entry whose own cost exceeds max_cost is never admitted (and the policy is untouched). *)
Theorem C01_oversize_never_admitted :
  forall est oracle s k cost,
    sl_max s < cost -> pol_add est oracle s k cost = AddDone s None false [] [].
Proof. exact oversize_never_admitted. Qed.
Print Assumptions C01_oversize_never_admitted.

(* update_max_cost takes effect for every later admission. *)
Theorem C01_max_cost_read_per_add :
  forall est oracle s mc k cost,
    pol_add est oracle (sl_set_max s mc) k cost =
    pol_add est oracle {| sl_max := mc; sl_used := sl_used s; sl_kc := sl_kc s |} k cost.
Proof. exact max_cost_read_per_add. Qed.
Print Assumptions C01_max_cost_read_per_add.

(* Lifting to the cache and to every schedule: whichever actor steps (client thread, processor,
   policy worker, clock), in whatever state and flavour, the policy's charges change by at most one
   of the policy operations above — all of them run under the policy mutex. *)
Theorem C01_every_cache_step_is_one_policy_operation :
  forall c st l st' o, cstep c st l = StepOk st' o -> slfu_rel (s_slfu st) (s_slfu st').
Proof. exact cstep_slfu. Qed.
Print Assumptions C01_every_cache_step_is_one_policy_operation.

(* Hence in every state reachable by any history under any interleaving, for every max_cost and
   internal-cost setting: the charged total equals the sum of the per-entry charges and every key
   is charged at most once. *)
Theorem C01_reachable_total_is_sum :
  forall c mc t now ls st os,
  crun c (cinit c mc t now) ls = Some (st, os) ->
  sl_used (s_slfu st) = asum (sl_kc (s_slfu st)) /\ NoDup (akeys (sl_kc (s_slfu st))).
Proof. exact reachable_WF. Qed.
Print Assumptions C01_reachable_total_is_sum.

(* Non-vacuity: a concrete history in which an update overshoots, a later add evicts one victim and
   is then rejected by popularity, and max_cost is lowered. *)
Example C01_nonvacuous :
  let est := fun k : key => match k with 1%N => 5 | 2%N => 1 | _ => 3 end in
  exists st,
    prun {| ps := sl_new 10; slack := 0 |}
      [PAdd est [] 1%N 4; PAdd est [] 2%N 4; PUpdate 1%N 7;
       PAdd est [[(2%N, 4); (1%N, 7)]; [(1%N, 7); (1%N, 7)]] 3%N 6; PSetMax 3] = Some st /\
    sl_used (ps st) = 7 /\ slack st = 10 /\ sl_kc (ps st) = [(1%N, 7)].
Proof. eexists. vm_compute. repeat split. Qed.
