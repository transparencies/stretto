(* Property C18 — keys hash deterministically and colliding keys stay isolated.
   Only statements here; proofs are in Keys.v and StoreProofs.v. *)
From StrettoModel Require Import Store StoreProofs Keys.
Open Scope Z_scope.

(* TransparentKeyBuilder maps every unsigned integer key to itself ... *)
Theorem C18_transparent_unsigned_is_identity :
  forall k x, is_signed k = false -> in_range k x -> transparent_index k x = x.
Proof. exact transparent_unsigned_is_identity. Qed.
Print Assumptions C18_transparent_unsigned_is_identity.

(* ... and every signed one to its two's-complement image ... *)
Theorem C18_transparent_signed_is_twos_complement :
  forall k x, is_signed k = true -> in_range k x ->
  transparent_index k x = if x <? 0 then 2 ^ 64 + x else x.
Proof. exact transparent_signed_is_twos_complement. Qed.
Print Assumptions C18_transparent_signed_is_twos_complement.

(* ... so distinct keys of one integer type (negative and boundary values included) never collide. *)
Theorem C18_transparent_injective :
  forall k x y, in_range k x -> in_range k y -> transparent_index k x = transparent_index k y -> x = y.
Proof. exact transparent_injective. Qed.
Print Assumptions C18_transparent_injective.

(* Two keys sharing an index but differing in (non-zero) conflict hash: an operation on one never
   reads, overwrites or removes the other's value — get / get_mut / get_ttl return nothing, insert
   and insert_if_present change nothing, remove removes nothing. *)
Theorem C18_colliding_lookup_returns_nothing :
  forall (s : storage) (k c1 c2 : N) (e : entry),
  aget k (st_map s) = Some e -> e_conflict e = c2 -> c1 <> c2 -> c1 <> 0%N ->
  forall now, st_get now s k c1 = None.
Proof. exact colliding_get_none. Qed.
Print Assumptions C18_colliding_lookup_returns_nothing.

Theorem C18_colliding_update_changes_nothing :
  forall (s : storage) (k c1 c2 : N) (e : entry),
  aget k (st_map s) = Some e -> e_conflict e = c2 -> c1 <> c2 -> c1 <> 0%N ->
  forall vld v t, st_try_update vld s k v c1 t = (s, UConflict).
Proof. exact colliding_update_noop. Qed.
Print Assumptions C18_colliding_update_changes_nothing.

Theorem C18_colliding_insert_changes_nothing :
  forall (s : storage) (k c1 c2 : N) (e : entry),
  aget k (st_map s) = Some e -> e_conflict e = c2 -> c1 <> c2 -> c1 <> 0%N ->
  forall vld v t, st_try_insert vld s k v c1 t = s.
Proof. exact colliding_insert_noop. Qed.
Print Assumptions C18_colliding_insert_changes_nothing.

Theorem C18_colliding_remove_removes_nothing :
  forall (s : storage) (k c1 c2 : N) (e : entry),
  aget k (st_map s) = Some e -> e_conflict e = c2 -> c1 <> c2 -> c1 <> 0%N ->
  st_try_remove s k c1 = (s, None).
Proof. exact colliding_remove_noop. Qed.
Print Assumptions C18_colliding_remove_removes_nothing.

(* Non-vacuity: i8 -1 and u8 255 differ; i64 min maps to 2^63. *)
Example C18_nonvacuous :
  (transparent_index KI8 (-1), transparent_index KU8 255, transparent_index KI64 (- 2 ^ 63)) =
  (18446744073709551615, 255, 9223372036854775808).
Proof. vm_compute. reflexivity. Qed.
