(* Property C13 — popularity estimates never undercount and decay by halving.
   Only statements here; proofs are in SketchProofs.v and TinyLFUProofs.v. *)
From StrettoModel Require Import SketchProofs BloomProofs TinyLFU TinyLFUProofs.
Open Scope N_scope.

(* One 4-bit counter: an increment adds one saturating at 15 and leaves every other counter of the
   row (its byte neighbour included) untouched; bytes stay bytes; never out of bounds inside the row. *)
Theorem C13_counter_saturates_and_is_isolated :
  forall r i, row_wf r -> (N.to_nat (i / 2) < length r)%nat ->
  exists r', row_inc r i = Some r' /\ row_wf r' /\ length r' = length r /\
    forall j, row_get r' j =
      if N.eqb j i then option_map (fun v => N.min 15 (v + 1)) (row_get r j) else row_get r j.
Proof. exact row_inc_spec. Qed.
Print Assumptions C13_counter_saturates_and_is_isolated.

(* Every counter width >= 1 (power of two or not) gives a usable sketch; width 0 is rejected. *)
Theorem C13_every_width_gives_a_sketch :
  forall ctrs seeds, 1 <= ctrs -> length seeds = SK_DEPTH ->
  exists s, sk_new ctrs seeds = Some s /\ sk_wf s /\ ctrs <= sk_mask s + 1.
Proof. exact sk_new_wf. Qed.
Print Assumptions C13_every_width_gives_a_sketch.

(* On a well-formed sketch (any seeds, any 64-bit hash) an increment never fails, counters only
   grow, and the recorded hash's estimate becomes min 15 (old + 1). *)
Theorem C13_sketch_increment :
  forall s h, sk_wf s ->
  exists s', sk_inc s h = Some s' /\ sk_wf s' /\ sk_mask s' = sk_mask s /\ sk_seeds s' = sk_seeds s /\
    forall h', exists e e', sk_est s h' = Some e /\ sk_est s' h' = Some e' /\ e <= e' /\ e' < 16 /\
                          (h' = h -> e' = N.min 15 (e + 1)).
Proof. exact sk_inc_spec. Qed.
Print Assumptions C13_sketch_increment.

(* Between two aging resets the estimate of every key is at least the number of times it was
   recorded, saturating at 16 (fifteen plus one for the doorkeeper) — for every recorded sequence,
   every seed vector, every width, robust to doorkeeper false positives and sketch collisions. *)
Theorem C13_estimate_never_undercounts :
  forall t hs t',
  tl_wf t -> Forall (fun g => g < two64) hs ->
  tl_w t + N.of_nat (length hs) < tl_samples t ->
  tl_increments t hs = Some t' ->
  forall h, h < two64 -> exists e, tl_estimate t' h = Some e /\ N.min 16 (count hs h) <= e /\ e <= 16.
Proof. exact estimate_never_undercounts. Qed.
Print Assumptions C13_estimate_never_undercounts.

(* The samples-th recorded access since the last reset, and no earlier one, halves every counter,
   empties the doorkeeper and restarts the window. *)
Theorem C13_reset_exactly_every_samples :
  forall t g, tl_wf t -> g < two64 ->
  exists t1, recorded t g t1 /\
    (tl_w t + 1 < tl_samples t ->
       tl_increment t g = Some {| tl_sk := tl_sk t1; tl_bl := tl_bl t1; tl_samples := tl_samples t; tl_w := tl_w t + 1 |}) /\
    (tl_samples t <= tl_w t + 1 ->
       exists t', tl_increment t g = Some t' /\ tl_w t' = 0 /\ tl_samples t' = tl_samples t /\
         (forall h, sk_est (tl_sk t') h = option_map (fun e => e / 2) (sk_est (tl_sk t1) h)) /\
         (forall p, bit (bl_words (tl_bl t')) p = false) /\
         (forall h, h < two64 -> 1 <= bl_locs (tl_bl t) -> bl_contains (tl_bl t') h = Some false)).
Proof. exact reset_exactly_at_samples. Qed.
Print Assumptions C13_reset_exactly_every_samples.

(* A fresh estimator has samples = num_counters exactly (not the rounded width), and estimates
   zero everywhere; clear() zeroes everything. *)
Theorem C13_fresh_estimates_zero :
  forall ctrs seeds entries locs,
  1 <= ctrs -> length seeds = SK_DEPTH ->
  N.log2_up (N.max entries 512) <= 64 -> locs * 2 ^ N.log2_up (N.max entries 512) <= two64 ->
  exists t, tl_new ctrs seeds entries locs = Some t /\ tl_wf t /\ tl_samples t = ctrs /\ tl_w t = 0 /\
    forall h, h < two64 -> 1 <= locs -> tl_estimate t h = Some 0.
Proof. exact tl_new_spec. Qed.
Print Assumptions C13_fresh_estimates_zero.

Theorem C13_clear_zeroes :
  forall t h, tl_wf t -> h < two64 -> 1 <= bl_locs (tl_bl t) ->
  tl_wf (tl_clear t) /\ tl_estimate (tl_clear t) h = Some 0 /\ tl_w (tl_clear t) = 0.
Proof. exact tl_clear_spec. Qed.
Print Assumptions C13_clear_zeroes.

(* Non-vacuity: width 40 (not a power of two): a key recorded 20 times saturates at 16, another
   recorded twice estimates 2, an unseen one 0; and the 5th access of a fresh width-5 estimator
   resets the window and halves the counter. *)
Example C13_nonvacuous :
  (match tl_new 40 [11; 22; 33; 44] 383 7 with
   | Some t =>
       match tl_increments t (repeat 7 20%nat ++ [8; 9; 8]) with
       | Some t' => (tl_estimate t' 7, tl_estimate t' 8, tl_estimate t' 10)
       | None => (None, None, None)
       end
   | None => (None, None, None)
   end = (Some 16, Some 2, Some 0)) /\
  (match tl_new 5 [11; 22; 33; 44] 47 7 with
   | Some u =>
       match tl_increments u [7; 7; 7; 7], tl_increments u [7; 7; 7; 7; 7] with
       | Some u4, Some u5 => (tl_w u4, tl_estimate u4 7, tl_w u5, tl_estimate u5 7)
       | _, _ => (0, None, 0, None)
       end
   | None => (0, None, 0, None)
   end = (4, Some 4, 0, Some 2)).
Proof. split; vm_compute; reflexivity. Qed.
