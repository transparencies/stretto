(* Property C15 — lookups feed the popularity estimator, lossily but accountably.
   Only statements here; proofs are in CacheLocal.v, CacheMetrics.v, CacheNoDeadlock.v. *)
From StrettoModel Require Import TinyLFUProofs Cache CacheLocal CacheMetrics CacheNoPanic CacheNoDeadlock.
Open Scope N_scope.

(* Every lookup on an open cache — hit or miss: the store is consulted only in the client's next
   segment — first pushes its key hash onto the pending batch; the batch is either longer by that key
   or has just been flushed because it reached buffer_items. *)
Theorem C15_every_lookup_is_recorded :
  forall c st a k cf, s_closed st = false ->
  exists st', start_op c st a (OGet k cf) = StepOk st' (mk_out PtGetAfterPush [] RNone) /\
    (s_ring st' = s_ring st ++ [k] \/
     (s_ring st' = [] /\ c_buffer_items c <= N.of_nat (length (s_ring st ++ [k])))).
Proof. exact lookup_pushes_its_key. Qed.
Print Assumptions C15_every_lookup_is_recorded.

(* A push, exhaustively: below buffer_items the key just joins the batch; at buffer_items the whole
   batch goes to the policy and the stripe restarts empty: queued for the worker with
   KeepGets += |batch|, or — queue full / worker gone — dropped with DropGets += |batch|, or — policy
   closed — dropped unaccounted.  A batch is lost in no other way. *)
Theorem C15_flush_is_kept_or_dropped :
  forall c st k,
  let data := s_ring st ++ [k] in
  let n := N.of_nat (length data) in
  (n < c_buffer_items c /\ ring_push c st k = upd_ring st data) \/
  (c_buffer_items c <= n /\ s_pol_closed st = true /\ ring_push c st k = upd_ring st []) \/
  (c_buffer_items c <= n /\ s_pol_closed st = false /\ push_room c st = true /\
     ring_push c st k = emit c (upd_pqueue (upd_ring st []) (s_pqueue st ++ [data])) [(MKeepGets, n)]) \/
  (c_buffer_items c <= n /\ s_pol_closed st = false /\ push_room c st = false /\
     ring_push c st k = emit c (upd_ring st []) [(MDropGets, n)]).
Proof. exact ring_push_cases. Qed.
Print Assumptions C15_flush_is_kept_or_dropped.

(* Each lookup is accounted exactly once: for EVERY step of EVERY actor (clients, processor, policy
   worker, clock, ticker), modulo 2^64, gets_kept + gets_dropped + |pending batch| grows by one if the
   step starts a lookup on an open cache and by nothing otherwise (while the policy is open; the
   counters' reset by clear() aside). *)
Theorem C15_accounting_is_conserved :
  forall c st l st' o,
  c_metrics c = true -> MW st -> s_pol_closed st = false -> (forall sig, s_pc st <> PClearAfterStore sig) ->
  cstep c st l = StepOk st' o ->
  wrap64 (gets_accounted st') = wrap64 (gets_accounted st + (if lookup_started st l then 1 else 0)).
Proof. exact gets_conservation. Qed.
Print Assumptions C15_accounting_is_conserved.

(* The pending batch is touched by lookups only; the policy's queue grows only by a flush and
   shrinks only by the worker taking its head. *)
Theorem C15_ring_changes_only_by_lookups :
  forall c st l st' o, cstep c st l = StepOk st' o -> lookup_started st l = false -> s_ring st' = s_ring st.
Proof. exact step_ring. Qed.
Print Assumptions C15_ring_changes_only_by_lookups.

Theorem C15_queue_is_fifo :
  forall c st l st' o, cstep c st l = StepOk st' o -> lookup_started st l = false ->
  s_pqueue st' = s_pqueue st \/ (exists h b, l = LWorker h /\ s_pqueue st = b :: s_pqueue st').
Proof. exact step_pqueue. Qed.
Print Assumptions C15_queue_is_fifo.

(* The worker applies exactly the head batch to the estimator; nothing else writes the estimator
   except clear(). *)
Theorem C15_worker_applies_head_batch :
  forall c st h st' o b r,
  s_wpc st = WIdle -> h_arm h = Some ArmItem -> s_pqueue st = b :: r -> worker_step c st h = StepOk st' o ->
  tl_increments (s_tlfu st) b = Some (s_tlfu st') /\ s_pqueue st' = r.
Proof. intros c st h st' o b r _. exact (worker_applies_batch c st h st' o b r). Qed.
Print Assumptions C15_worker_applies_head_batch.

Theorem C15_estimator_written_only_by_worker_and_clear :
  forall c st l st' o, cstep c st l = StepOk st' o ->
  s_tlfu st' = s_tlfu st \/
  (exists h b, l = LWorker h /\ s_pqueue st = b :: s_pqueue st' /\ tl_increments (s_tlfu st) b = Some (s_tlfu st')) \/
  (exists h sig, l = LProc h /\ s_pc st = PClearAfterDrain sig /\ s_tlfu st' = tl_clear (s_tlfu st)).
Proof. exact step_tlfu. Qed.
Print Assumptions C15_estimator_written_only_by_worker_and_clear.

(* Once a kept batch has been processed the estimate of every key reflects its lookups in that batch
   (at least their number, saturating at 16) — unless the aging window ended inside the batch. *)
Theorem C15_kept_batch_is_reflected :
  forall c st h st' o b r,
  tl_wf (s_tlfu st) -> Forall (fun g => g < two64) b ->
  tl_w (s_tlfu st) + N.of_nat (length b) < tl_samples (s_tlfu st) ->
  s_wpc st = WIdle -> h_arm h = Some ArmItem -> s_pqueue st = b :: r -> worker_step c st h = StepOk st' o ->
  forall k, k < two64 -> exists e, tl_estimate (s_tlfu st') k = Some e /\ N.min 16 (count b k) <= e /\ e <= 16.
Proof. intros c st h st' o b r TW Fb Hw _. exact (kept_batch_is_reflected c st h st' o b r TW Fb Hw). Qed.
Print Assumptions C15_kept_batch_is_reflected.

(* non-vacuity: buffer_items = 2, three lookups of key 7: one batch [7;7] kept, one key pending;
   after the worker ran the estimate of 7 is 2 *)
Example C15_nonvacuous :
  match tl_new 16 [1; 2; 3; 4] 153 7 with
  | Some t =>
      let c := {| c_ignore_internal := true; c_item_size := 56; c_buf_cap := 8; c_buffer_items := 2; c_metrics := true;
                  c_validator := fun _ _ => true; c_coster := fun _ => 0%Z; c_async := false |} in
      match crun c (cinit c 10 t 1000)
              [LOp 0 (OGet 7 0); LClient 0; LOp 0 (OGet 7 0); LClient 0; LOp 0 (OGet 7 0); LClient 0;
               LWorker {| h_arm := Some ArmItem; h_oracle := []; h_tick_key := None |}] with
      | Some (st, _) => (m_get (s_mets st) MKeepGets, m_get (s_mets st) MDropGets, s_ring st, tl_estimate (s_tlfu st) 7,
                         m_get (s_mets st) MMiss)
      | None => (0, 0, [], None, 0)
      end
  | None => (0, 0, [], None, 0)
  end = (2, 0, [7], Some 2, 3).
Proof. vm_compute. reflexivity. Qed.

(* Progress of the policy worker: at its loop head with a batch queued it can always apply the head
   batch — no panic, whatever the keys (NP / SO are the invariants of every reachable state, C20) —
   so a flushed batch that was kept is eventually reflected as soon as the worker is scheduled. *)
Theorem C15_worker_can_take_the_head_batch :
  forall c st b r,
  NP st -> SO st -> s_wpc st = WIdle -> s_pqueue st = b :: r ->
  exists st' o, worker_step c st {| h_arm := Some ArmItem; h_oracle := []; h_tick_key := None |} = StepOk st' o.
Proof. intros c st b r N _. exact (worker_can_take_the_head_batch c st b r N). Qed.
Print Assumptions C15_worker_can_take_the_head_batch.
