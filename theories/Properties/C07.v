(* Property C07 — admission and eviction follow the TinyLFU / sampled-LFU rule.
   Only statements here; proofs are in PolicyProofs.v. *)
From StrettoModel Require Import Policy PolicyProofs.
From StrettoModel Require Consts.
Open Scope Z_scope.

(* Residents are sampled five at a time (the constant is read from the source on every run). *)
Theorem C07_samples_is_five : SAMPLES = 5%nat.
Proof. reflexivity. Qed.

(* When there is room a new key is always admitted and nothing is evicted. *)
Theorem C07_room_admits_without_eviction :
  forall est oracle s k cost,
    cost <= sl_max s -> aget k (sl_kc s) = None -> 0 <= sl_room_left s cost ->
    pol_add est oracle s k cost =
      AddDone (sl_increment s k cost) None true [] [(MCostAdd, u64_of_i64 cost)].
Proof. exact room_admits_without_eviction. Qed.
Print Assumptions C07_room_admits_without_eviction.

(* The first sample holds five distinct current residents, or all of them if fewer. *)
Theorem C07_first_sample_is_five_or_all :
  forall (kc : amap Z) smp,
    legal_fill kc [] smp = true ->
    length smp = Nat.min SAMPLES (length kc) /\ NoDup (map fst smp) /\
    (forall p, In p smp -> pair_in p kc = true).
Proof. exact first_sample_is_five_or_all. Qed.
Print Assumptions C07_first_sample_is_five_or_all.

(* In every iteration of the loop the chosen victim is an element of the sample, no sampled
   candidate is less popular, and it is the first such candidate. *)
Theorem C07_victim_is_least_popular_and_first :
  forall est l mk mh mi mc,
    (forall k, est k < I64MAX) -> l <> [] ->
    find_min0 est l = (mk, mh, mi, mc) ->
    nth_error l mi = Some (mk, mc) /\ mh = est mk /\
    (forall p, In p l -> mh <= est (fst p)) /\
    (forall j p, (j < mi)%nat -> nth_error l j = Some p -> mh < est (fst p)).
Proof. exact find_min0_spec. Qed.
Print Assumptions C07_victim_is_least_popular_and_first.

(* For a new key that does not fit: every iteration ran only while room was lacking and chose the
   minimum of its sample; on admission the victims are exactly the logged minima, each no more
   popular than the newcomer, and there is room at the end; the newcomer is rejected exactly when
   it is strictly less popular than the minimum of the last sample (ties admit), and then the
   victims are the minima of the earlier iterations. *)
Theorem C07_evict_only_while_room_lacking_reject_iff_strictly_less :
  forall est oracle s k cost s' v a l m,
    WF s -> NonNeg s -> cost <= sl_max s -> aget k (sl_kc s) = None -> sl_room_left s cost < 0 ->
    pol_add est oracle s k cost = AddDone s' v a l m ->
    Forall (fun e => il_room e < 0 /\
              find_min0 est (il_sample e) = (il_min_key e, il_min_hits e, il_min_id e, il_min_cost e)) l /\
    (a = true -> v = Some (map victim_of l) /\ Forall (fun e => il_min_hits e <= est k) l /\
                 0 <= sl_room_left s' 0) /\
    (a = false -> exists e, l = removelast l ++ [e] /\ est k < il_min_hits e /\
                 v = Some (map victim_of (removelast l)) /\
                 Forall (fun e => il_min_hits e <= est k) (removelast l)).
Proof. intros est oracle s k cost s' v a l m _ _. exact (pol_add_rule est oracle s k cost s' v a l m). Qed.
Print Assumptions C07_evict_only_while_room_lacking_reject_iff_strictly_less.

(* Non-vacuity: an over-budget state left by an update, two victims, ties in popularity. *)
Example C07_nonvacuous :
  let est := fun k : key => match k with 1%N => 2 | 2%N => 1 | 3%N => 1 | 9%N => 1 | _ => 3 end in
  let s := {| sl_max := 10; sl_used := 12; sl_kc := [(1%N, 4); (2%N, 4); (3%N, 4)] |} in
  exists s' l m,
    pol_add est [[(1%N, 4); (2%N, 4); (3%N, 4)]; [(1%N, 4); (3%N, 4); (1%N, 4); (3%N, 4)]] s 9%N 5
      = AddDone s' (Some [(2%N, 4); (3%N, 4)]) true l m /\ sl_used s' = 9.
Proof. do 3 eexists. vm_compute. split; reflexivity. Qed.
