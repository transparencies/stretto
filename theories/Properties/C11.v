(* Property C11 — clear() empties the cache and leaves it fully usable.
   Only statements here; proofs are in CacheInv.v, CacheFresh.v and CacheClearLive.v. *)
From StrettoModel Require Import Cache CacheInv CacheFresh CacheClearLive.
Open Scope N_scope.

(* clear() returns only after the processor has acknowledged it.  In every reachable state (every
   history, every interleaving, either flavour) that acknowledging step finds and leaves: no resident
   entry, no expiry listing, no charge, a charged total of zero and (metrics on) all counters zero.
   Clients may have run arbitrarily while the clear was in progress: they cannot add entries or
   charges.  (The defect repaired by b383703: clear used to run on the caller's thread.) *)
Theorem C11_clear_ack_leaves_cache_empty :
  forall c mc t now st sig h,
  reach c (cinit c mc t now) st -> s_pc st = PClearAfterStore sig ->
  exists st', proc_step c st h = StepOk st' (mk_out PtProcLoop [] RNone) /\
    mem_N sig (s_done st') = true /\
    s_store st' = st_empty /\ sl_kc (s_slfu st') = [] /\ sl_used (s_slfu st') = 0%Z /\
    (c_metrics c = true -> s_mets st' = metrics_zero) /\ s_pc st' = PIdle.
Proof. exact clear_ack_leaves_cache_empty. Qed.
Print Assumptions C11_clear_ack_leaves_cache_empty.

(* Buffered, not yet applied work at the moment of the clear: every buffered New item is handed to
   on_evict, every buffered waiter is released, nothing else fires. *)
Theorem C11_clear_drains_buffer :
  forall its done cbs done' cbs',
  drain_items its done cbs = (done', cbs') ->
  (forall k cf cost v exp, In (INew k cf cost v exp) its -> In (CbEvict k cf v cost) cbs') /\
  (forall x, In x cbs -> In x cbs') /\
  (forall id, In (IWait id) its -> mem_N id done' = true).
Proof. exact clear_drains_buffer. Qed.
Print Assumptions C11_clear_drains_buffer.

Theorem C11_invariant_is_inductive :
  forall c st l st' o, ClearEmpty st -> cstep c st l = StepOk st' o -> ClearEmpty st'.
Proof. exact ClearEmpty_step. Qed.
Print Assumptions C11_invariant_is_inductive.

(* "The cache then behaves like a fresh one" (proofs in CacheFresh.v).  The geometry and parameters
   of the popularity estimator never change — whatever lookups, aging resets and clears happen ... *)
Theorem C11_estimator_shape_is_invariant :
  forall c st l st' o, cstep c st l = StepOk st' o -> tl_shape (s_tlfu st') = tl_shape (s_tlfu st).
Proof. exact estimator_shape_is_invariant. Qed.
Print Assumptions C11_estimator_shape_is_invariant.

(* ... so clear() leaves the estimator (count-min rows, doorkeeper, window counter) EXACTLY as the
   builder made it, together with an empty policy; the acknowledging step (above) then finds the
   store, the expiry index and the counters empty too: the state a fresh cache starts from. *)
Theorem C11_clear_restores_the_fresh_estimator :
  forall c mc ctrs seeds entries locs t0 now st h sig,
  tl_new ctrs seeds entries locs = Some t0 ->
  reach c (cinit c mc t0 now) st -> s_pc st = PClearAfterDrain sig ->
  exists st', proc_step c st h = StepOk st' (mk_out PtProcClearAfterPolicy [] RNone) /\
    s_tlfu st' = t0 /\ sl_kc (s_slfu st') = [] /\ sl_used (s_slfu st') = 0%Z.
Proof. exact clear_restores_the_fresh_estimator. Qed.
Print Assumptions C11_clear_restores_the_fresh_estimator.

(* clear() — and the clear inside close() — is never stranded (proofs in CacheClearLive.v): in every
   reachable state, whatever races with it, a client blocked on its clear signal can return now, or
   its signal is still queued for a live processor, or the processor is performing that very clear;
   a processor that exits releases every pending signal. *)
Theorem C11_clear_never_stuck :
  forall c mc t now st a id closing,
  reach c (cinit c mc t now) st -> client_of st a = KClearBlock id closing ->
  (exists st' o, continue_client c st a = StepOk st' o) \/
  (In id (s_clear_sigs st) /\ s_pc st <> PExited) \/ clearing (s_pc st) id.
Proof. exact clear_never_stuck. Qed.
Print Assumptions C11_clear_never_stuck.

Theorem C11_clear_wait_invariant_is_inductive :
  forall c st l st' o, ClearWaitInv st -> cstep c st l = StepOk st' o -> ClearWaitInv st'.
Proof. exact ClearWaitInv_step. Qed.
Print Assumptions C11_clear_wait_invariant_is_inductive.
