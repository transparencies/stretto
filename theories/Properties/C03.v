(* Property C03 — TTL visibility: nothing is served after its TTL, nothing expires without one.
   Only statements here; proofs are in StoreProofs.v. *)
From StrettoModel Require Import Store StoreProofs.
Open Scope N_scope.

(* Once d has elapsed since the insert, get / get_mut / get_ttl (all go through st_get) return
   nothing — for every d > 0, every instant, whatever the second boundaries. *)
Theorem C03_expired_is_invisible :
  forall now s k c e,
  aget k (st_map s) = Some e -> 0 < t_d (e_exp e) -> t_created (e_exp e) + t_d (e_exp e) <= now ->
  st_get now s k c = None.
Proof. exact expired_is_invisible. Qed.
Print Assumptions C03_expired_is_invisible.

(* Before that the entry is served ... *)
Theorem C03_live_is_visible :
  forall now s k c e,
  aget k (st_map s) = Some e -> t_created (e_exp e) <= now -> now < t_created (e_exp e) + t_d (e_exp e) ->
  conflict_ok c e = true -> st_get now s k c = Some e.
Proof. intros now s k c e He _. exact (live_is_visible now s k c e He). Qed.
Print Assumptions C03_live_is_visible.

(* ... and get_ttl / ValueRef::ttl report exactly the remaining time: at most d, never increasing. *)
Theorem C03_ttl_reports_remaining :
  forall now t, 0 < t_d t -> t_created t <= now -> now < t_created t + t_d t ->
  t_get_ttl now t = Some (TtlNs (t_created t + t_d t - now)) /\ t_created t + t_d t - now <= t_d t.
Proof. intros now t _. apply ttl_reports_remaining. Qed.
Print Assumptions C03_ttl_reports_remaining.

Theorem C03_ttl_never_increases :
  forall now now' t, 0 < t_d t -> t_created t <= now -> now <= now' -> now' < t_created t + t_d t ->
  forall r r', t_get_ttl now t = Some (TtlNs r) -> t_get_ttl now' t = Some (TtlNs r') -> r' <= r.
Proof. intros now now' t _. apply ttl_antitone. Qed.
Print Assumptions C03_ttl_never_increases.

(* An entry inserted without TTL reports no expiry and is served at every later instant. *)
Theorem C03_no_ttl_reports_no_expiry :
  forall now t, t_d t = 0 -> t_get_ttl now t = Some TtlInf.
Proof. exact zero_ttl_reports_no_expiry. Qed.
Print Assumptions C03_no_ttl_reports_no_expiry.

Theorem C03_no_ttl_never_times_out :
  forall now s k c e,
  aget k (st_map s) = Some e -> t_d (e_exp e) = 0 -> conflict_ok c e = true -> st_get now s k c = Some e.
Proof. exact no_ttl_never_times_out. Qed.
Print Assumptions C03_no_ttl_never_times_out.

(* Re-inserting a resident key replaces value and deadline at once (ttl 0: no expiry any more),
   and touches no other key. *)
Theorem C03_reinsert_replaces_deadline :
  forall vld s k v c t s' old,
  st_try_update vld s k v c t = (s', UUpdate old) ->
  exists e, aget k (st_map s) = Some e /\ e_val e = old /\
    aget k (st_map s') = Some {| e_conflict := e_conflict e; e_val := v; e_exp := t |} /\
    forall k', k' <> k -> aget k' (st_map s') = aget k' (st_map s).
Proof. exact update_replaces_deadline. Qed.
Print Assumptions C03_reinsert_replaces_deadline.

(* Non-vacuity: a 1.5 s TTL straddling a second boundary: visible 1 ns before the deadline with
   1 ns left, invisible at the deadline; re-inserted without TTL it is visible an hour later. *)
Example C03_nonvacuous :
  let t := {| t_created := 1700000000600000000; t_d := 1500000000 |} in
  let s := {| st_map := [(7, {| e_conflict := 0; e_val := 42; e_exp := t |})]; st_em := [] |} in
  (match st_get 1700000002099999999 s 7 0 with Some e => Some (e_val e) | None => None end,
   t_get_ttl 1700000002099999999 t,
   match st_get 1700000002100000000 s 7 0 with Some e => Some (e_val e) | None => None end,
   match st_try_update (fun _ _ => true) s 7 43 0 {| t_created := 1700000001000000000; t_d := 0 |} with
   | (s', _) => match st_get 1700003600000000000 s' 7 0 with Some e => Some (e_val e) | None => None end
   end)
  = (Some 42, Some (TtlNs 1), None, Some 43).
Proof. vm_compute. reflexivity. Qed.
