(* Property C17 — metrics obey conservation laws.
   Only statements here; proofs are in CacheMetrics.v and CacheCharge.v. *)
From StrettoModel Require Import Cache CacheMetrics CacheCharge.
Open Scope N_scope.

(* What every step of every actor does to the eleven counters, exactly: a lookup's start emits at
   most one KeepGets/DropGets event; the segment that consults the store emits exactly one Hit or one
   Miss; an insert's send emits DropSets 1 exactly when it returns false (only New items are dropped);
   the processor emits only the policy's events and KeyAdd; nobody else emits anything; clear()
   zeroes the array. *)
Theorem C17_step_events :
  forall c st l st' o,
  c_metrics c = true -> cstep c st l = StepOk st' o ->
  (exists evs, s_mets st' = m_adds (s_mets st) evs /\ evs_spec c st l o evs) \/
  (exists sig h, l = LProc h /\ s_pc st = PClearAfterStore sig /\ s_mets st' = metrics_zero).
Proof. exact step_metrics. Qed.
Print Assumptions C17_step_events.

(* hits + misses counts the lookups made on the open cache: modulo 2^64 it grows by exactly one when
   a lookup consults the store, and by nothing on any other step. *)
Theorem C17_hits_plus_misses_counts_lookups :
  forall c st l st' o,
  c_metrics c = true -> MW st -> (forall sig, s_pc st <> PClearAfterStore sig) ->
  cstep c st l = StepOk st' o ->
  wrap64 (m_get (s_mets st') MHit + m_get (s_mets st') MMiss) =
  wrap64 (m_get (s_mets st) MHit + m_get (s_mets st) MMiss + (if lookup_finishes st l then 1 else 0)).
Proof. exact hit_miss_conservation. Qed.
Print Assumptions C17_hits_plus_misses_counts_lookups.

(* sets_dropped counts exactly the inserts of non-resident keys that returned false for lack of
   buffer space: +1 on such a step, unchanged on every other step (an insert whose send step leaves
   it unchanged returned true). *)
Theorem C17_sets_dropped_is_exact :
  forall c st l st' o,
  c_metrics c = true -> MW st -> (forall sig, s_pc st <> PClearAfterStore sig) ->
  cstep c st l = StepOk st' o ->
  (m_get (s_mets st') MDropSets = wrap64 (m_get (s_mets st) MDropSets + 1) /\
     exists a it k, l = LClient a /\ client_of st a = KInsSend it k /\ is_update it = false /\
                    buf_send c st it = None /\ o_res o = RBool false) \/
  (m_get (s_mets st') MDropSets = m_get (s_mets st) MDropSets /\
     forall a it k, l = LClient a -> client_of st a = KInsSend it k -> o_res o = RBool true).
Proof. exact drop_sets_exact. Qed.
Print Assumptions C17_sets_dropped_is_exact.

(* sets_rejected: the eviction loop emits RejectSets 1 exactly when it refuses the incoming key, as
   the last event of that add, and never otherwise. *)
Theorem C17_rejections_are_counted_once :
  forall est ih k cost oracle s sample victims log mets s' v a lg m,
  evict_loop est ih k cost oracle s sample victims log mets = AddDone s' v a lg m ->
  exists more, m = mets ++ more /\
    (a = false -> exists ev, more = ev ++ [(MRejectSets, 1)] /\ Forall (fun e => fst e <> MRejectSets) ev) /\
    (a = true -> Forall (fun e => fst e <> MRejectSets) more).
Proof. exact evict_loop_rejects. Qed.
Print Assumptions C17_rejections_are_counted_once.

(* keys_added - keys_evicted = number of charged entries, cost_added - cost_evicted = charged total
   (modulo 2^64: the counters are wrapping u64s, cost decreases are added in two's complement): an
   invariant of every step of every actor ... *)
Theorem C17_charge_invariant_is_inductive :
  forall c st l st' o,
  c_metrics c = true -> ChargeInv st -> DeltaOk c st -> cstep c st l = StepOk st' o -> ChargeInv st'.
Proof. exact ChargeInv_step. Qed.
Print Assumptions C17_charge_invariant_is_inductive.

(* ... hence true in every reachable state in which the processor is between items, in particular
   at every quiescent point, for every history and schedule. *)
Theorem C17_charge_conservation :
  forall c mc t now st,
  c_metrics c = true -> reach_d c (cinit c mc t now) st -> s_pc st = PIdle ->
  eqm (Z.of_N (m_get (s_mets st) MCostAdd) - Z.of_N (m_get (s_mets st) MCostEvict)) (sl_used (s_slfu st)) /\
  eqm (Z.of_N (m_get (s_mets st) MKeyAdd) - Z.of_N (m_get (s_mets st) MKeyEvict)) (Z.of_nat (length (sl_kc (s_slfu st)))).
Proof. exact charge_conservation. Qed.
Print Assumptions C17_charge_conservation.

(* Counters restart from zero at clear(), after the store was emptied and before the caller is
   released; the life-expectancy histogram is reset with them. *)
Theorem C17_clear_restarts_counters :
  forall c st h sig,
  c_metrics c = true -> s_pc st = PClearAfterStore sig ->
  exists st', proc_step c st h = StepOk st' (mk_out PtProcLoop [] RNone) /\
    s_mets st' = metrics_zero /\ s_hist st' = hist_clear /\ mem_N sig (s_done st') = true /\
    (forall t, m_get (s_mets st') t = 0).
Proof. exact clear_resets_metrics. Qed.
Print Assumptions C17_clear_restarts_counters.

(* The life-expectancy histogram.  A key admitted with metrics on is tracked from its admission
   (start_ts; the pruning of more than num_to_keep tracked keys is outside the model) ... *)
Theorem C17_admission_tracks_key :
  forall c st k,
  c_metrics c = true -> N.of_nat (length (s_start st)) <= Consts.NUM_TO_KEEP ->
  exists st1, track_admission c st k = Some st1 /\ aget k (s_start st1) = Some (s_now st) /\ s_hist st1 = s_hist st.
Proof. exact admission_tracks_key. Qed.
Print Assumptions C17_admission_tracks_key.

(* ... every eviction — policy victim or swept entry — of a tracked key adds exactly one sample (its
   age in whole seconds) and untracks it; an untracked key adds nothing ... *)
Theorem C17_eviction_adds_one_sample :
  forall c st k ts,
  c_metrics c = true -> aget k (s_start st) = Some ts -> ts <= s_now st -> hist_ok (s_hist st) ->
  exists st1, prepare_evict c st k = Some st1 /\
    h_count (s_hist st1) = (h_count (s_hist st) + 1)%Z /\ hist_ok (s_hist st1) /\
    h_sum (s_hist st1) = (h_sum (s_hist st) + Z.of_N ((s_now st - ts) / 1000000000))%Z /\
    aget k (s_start st1) = None.
Proof. exact eviction_samples_tracked_key. Qed.
Print Assumptions C17_eviction_adds_one_sample.

Theorem C17_untracked_eviction_adds_nothing :
  forall c st k, aget k (s_start st) = None -> prepare_evict c st k = Some st.
Proof. exact eviction_of_untracked_key. Qed.
Print Assumptions C17_untracked_eviction_adds_nothing.

(* ... and the histogram's count equals the sum of its seventeen buckets: one sample puts one unit
   in exactly one bucket, and this is an invariant of every step of every actor. *)
Theorem C17_sample_goes_to_one_bucket :
  forall h v, hist_ok h ->
  hist_ok (hist_update h v) /\ h_count (hist_update h v) = (h_count h + 1)%Z /\ h_sum (hist_update h v) = (h_sum h + v)%Z /\
  sumZ (h_buckets (hist_update h v)) = (sumZ (h_buckets h) + 1)%Z.
Proof. exact hist_update_spec. Qed.
Print Assumptions C17_sample_goes_to_one_bucket.

Theorem C17_count_equals_sum_of_buckets :
  forall c st l st' o, hist_ok (s_hist st) -> cstep c st l = StepOk st' o -> hist_ok (s_hist st').
Proof. exact hist_ok_step. Qed.
Print Assumptions C17_count_equals_sum_of_buckets.

(* non-vacuity: two inserts (costs 3 and 4, max 10), one update to cost 1, one remove: at quiescence
   cost_added - cost_evicted = used = 1 (mod 2^64, through a two's-complement CostAdd) and
   keys_added - keys_evicted = 1 *)
Definition c17_cfg : cfg :=
  {| c_ignore_internal := true; c_item_size := 56; c_buf_cap := 8; c_buffer_items := 64; c_metrics := true;
     c_validator := fun _ _ => true; c_coster := fun _ => 0%Z; c_async := false |}.
Definition c17_item : hint := {| h_arm := Some ArmItem; h_oracle := []; h_tick_key := None |}.
Example C17_nonvacuous :
  match tl_new 16 [1; 2; 3; 4] 153 7 with
  | Some t =>
      match crun c17_cfg (cinit c17_cfg 10 t 1000)
              [LOp 0 (OInsert 1 0 100 3 0 false); LClient 0; LProc c17_item; LProc no_hint; LProc no_hint;
               LOp 0 (OInsert 2 0 200 4 0 false); LClient 0; LProc c17_item; LProc no_hint; LProc no_hint;
               LOp 0 (OInsert 2 0 201 1 0 false); LClient 0; LProc c17_item;
               LOp 0 (ORemove 1 0); LClient 0; LProc c17_item; LProc no_hint] with
      | Some (st, _) => (wrap64 (m_get (s_mets st) MCostAdd + (two64 - m_get (s_mets st) MCostEvict)), sl_used (s_slfu st),
                         m_get (s_mets st) MKeyAdd, m_get (s_mets st) MKeyEvict, length (sl_kc (s_slfu st)), s_pc st)
      | None => (0, 0%Z, 0, 0, 0%nat, PExited)
      end
  | None => (0, 0%Z, 0, 0, 0%nat, PExited)
  end = (1, 1%Z, 2, 1, 1%nat, PIdle).
Proof. vm_compute. reflexivity. Qed.
