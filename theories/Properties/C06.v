(* Property C06 — resident entries and policy charges always agree at quiescence.
   Only statements here; proofs are in CacheAgree.v. *)
From StrettoModel Require Import Cache CacheAgree.
Open Scope N_scope.

(* For every run — any history of inserts, updates, removes, expirations, evictions, clears; any
   number of client threads; every interleaving of their segments with the processor's and the
   policy worker's; either flavour; every configuration — in which keys are told apart by their
   index hash (every conflict hash is 0, as with TransparentKeyBuilder): whenever the cache is
   quiescent, a key is resident exactly when it is charged ...  (No hypothesis about errors is left:
   since fix 7541841 a remove() waits for room instead of losing its Delete to a full buffer.) *)
Theorem C06_quiescent_agree :
  forall c mc t now st,
  reach_cf c (cinit c mc t now) st -> quiescent st ->
  forall k, inS st k = inC st k.
Proof. exact quiescent_agree. Qed.
Print Assumptions C06_quiescent_agree.

(* ... and len() equals the number of charged entries. *)
Theorem C06_quiescent_len :
  forall c mc t now st,
  reach_cf c (cinit c mc t now) st -> quiescent st ->
  st_len (s_store st) = N.of_nat (length (sl_kc (s_slfu st))).
Proof. exact quiescent_len. Qed.
Print Assumptions C06_quiescent_len.

(* The inductive invariant: a key may be resident without charge only while the processor is about
   to remove it (pending victim, second half of a Delete or of a sweep, store not yet cleared), and
   charged without being resident only while its store insert is next, a Delete for it is on its
   way, or the policy is about to be cleared.  Preserved by every step of every actor. *)
Theorem C06_invariant_is_inductive :
  forall c st l st' o,
  Agree st -> ZeroConf st -> label_cf0 l ->
  cstep c st l = StepOk st' o -> Agree st'.
Proof. exact Agree_step. Qed.
Print Assumptions C06_invariant_is_inductive.

(* KNOWN FINDING D9 (index collisions, upstream Ristretto behaviour): with two keys sharing an index
   hash but differing in conflict hash the statement is false — remove(B) queues Delete{index}, whose
   policy.remove(index) un-charges resident A while store.try_remove declines on the conflict
   mismatch.  Machine-checked witness: after insert A=(1,conflict 1); remove B=(1,conflict 2), at
   quiescence index 1 is resident but not charged. *)
Definition d9_cfg : cfg :=
  {| c_ignore_internal := true; c_item_size := 48; c_buf_cap := 8; c_buffer_items := 64; c_metrics := false;
     c_validator := fun _ _ => true; c_coster := fun _ => 0%Z; c_async := false |}.
Definition d9_hint (a : arm) : hint := {| h_arm := Some a; h_oracle := []; h_tick_key := None |}.
Definition d9_run : list label :=
  [LOp 0 (OInsert 1 1 100 1 0 false); LClient 0;
   LProc (d9_hint ArmItem); LProc no_hint; LProc no_hint;
   LOp 0 (ORemove 1 2); LClient 0;
   LProc (d9_hint ArmItem); LProc no_hint].

Lemma C06_collision_refuted :
  match tl_new 16 [1; 2; 3; 4] 153 7 with
  | Some t =>
      match crun d9_cfg (cinit d9_cfg 10 t 1000) d9_run with
      | Some (st, _) => (inS st 1, inC st 1, match s_pc st with PIdle => true | _ => false end, s_buf st)
      | None => (false, false, false, [])
      end
  | None => (false, false, false, [])
  end = (true, false, true, []).
Proof. vm_compute. reflexivity. Qed.
