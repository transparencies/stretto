(* Property C12 — close() is final, idempotent, and leaves no worker behind.
   Only statements here; proofs are in CacheLocal.v, CacheClose.v, CacheCloseLive.v,
   CacheCloseAsync.v and CacheNoDeadlock.v. *)
From StrettoModel Require Import Cache CacheLocal CacheInv CacheClose CacheCloseLive CacheCloseAsync TinyLFUProofs CacheNoPanic CacheNoDeadlock.
Open Scope N_scope.

(* Once the closed flag is set (close() publishes it first), in ANY state: insert returns false,
   get / get_mut return nothing, remove / wait / clear / close return Ok — each in one step that
   leaves the state exactly as it was; nothing blocks, nothing panics. *)
Theorem C12_closed_is_absorbing :
  forall c st a op,
  s_closed st = true ->
  match op with
  | OInsert _ _ _ _ _ _ => start_op c st a op = StepOk st (mk_out PtFinish [] (RBool false))
  | OGet _ _ => start_op c st a op = StepOk st (mk_out PtFinish [] (RGet None))
  | OGetMutWrite _ _ _ => start_op c st a op = StepOk st (mk_out PtFinish [] (RGetMut None))
  | ORemove _ _ | OWait | OClear | OClose => start_op c st a op = StepOk st (mk_out PtFinish [] (RUnit true))
  | _ => True
  end.
Proof. exact closed_is_absorbing. Qed.
Print Assumptions C12_closed_is_absorbing.

(* Final: no step of any actor — client, processor, policy worker, clock, ticker — re-opens the cache
   or the policy, or brings a worker that has left its loop back. *)
Theorem C12_closed_is_final :
  forall c st l st' o,
  cstep c st l = StepOk st' o ->
  (s_closed st = true -> s_closed st' = true) /\ (s_pol_closed st = true -> s_pol_closed st' = true) /\
  (s_pc st = PExited -> s_pc st' = PExited) /\ (s_wpc st = WExited -> s_wpc st' = WExited).
Proof. exact closed_is_final. Qed.
Print Assumptions C12_closed_is_final.

(* No worker left behind, either flavour, every history and schedule (closers racing each other and
   other operations included): in every reachable state, a closer that is about to publish the
   policy's closed flag and return Ok — and every state in which that flag is set — has a cache
   processor that has left its loop or holds its stop message, and a policy worker likewise (async:
   the message sits in the stop channel, the stop arm stays ready until taken). *)
Theorem C12_close_leaves_no_worker_behind :
  forall c mc t now st a,
  reach c (cinit c mc t now) st -> (client_of st a = KPolCloseAfterStop \/ s_pol_closed st = true) ->
  (s_pc st = PExited \/ 0 < s_stop_msgs st) /\ (s_wpc st = WExited \/ 0 < s_pol_stop_msgs st).
Proof. exact close_leaves_no_worker_behind. Qed.
Print Assumptions C12_close_leaves_no_worker_behind.

(* Sync flavour (both handshakes are rendezvous): when close() returns Ok the processor and the
   policy worker HAVE both left their loops. *)
Theorem C12_sync_close_returns_after_workers_exit :
  forall c mc t now st a,
  c_async c = false -> reach c (cinit c mc t now) st ->
  (client_of st a = KPolCloseAfterStop \/ s_pol_closed st = true) ->
  s_pc st = PExited /\ s_wpc st = WExited.
Proof. exact sync_close_returns_after_workers_exit. Qed.
Print Assumptions C12_sync_close_returns_after_workers_exit.

(* The invariant behind both is inductive over every step. *)
Theorem C12_invariant_is_inductive :
  forall c st l st' o, CloseInv st -> cstep c st l = StepOk st' o -> CloseInv st'.
Proof. exact CloseInv_step. Qed.
Print Assumptions C12_invariant_is_inductive.

(* close() is never stranded in its handshakes (proofs in CacheCloseLive.v).  At most one client is
   ever inside close() — every other close() returns Ok at once ... *)
Theorem C12_at_most_one_closer :
  forall c mc t now st a b,
  reach c (cinit c mc t now) st -> in_close (client_of st a) = true -> in_close (client_of st b) = true -> a = b.
Proof. exact at_most_one_closer. Qed.
Print Assumptions C12_at_most_one_closer.

(* ... and in the sync flavour, in every reachable state, the closer offering the stop in the
   rendezvous has a live partner: the cache processor (resp. the policy worker) has not left its
   loop, so the handshake can complete. *)
Theorem C12_sync_close_offer_has_a_live_partner :
  forall c mc t now st a,
  c_async c = false -> reach c (cinit c mc t now) st ->
  (client_of st a = KCloseStopOffered -> s_pc st <> PExited) /\
  (client_of st a = KPolCloseStopOffered -> s_wpc st = WIdle).
Proof. exact sync_close_offer_has_a_live_partner. Qed.
Print Assumptions C12_sync_close_offer_has_a_live_partner.

(* close() is never part of a deadlock (sync flavour, every reachable state): a closer waiting in the
   rendezvous of the stop message always has a partner that can move — the cache processor takes the
   stop at its loop head or goes on with what it is doing; the policy worker takes its stop. *)
Theorem C12_blocked_close_has_a_moving_partner :
  forall c mc t now st a,
  tl_wf t -> c_async c = false ->
  reach_u64 c (cinit c mc t now) st ->
  N.of_nat (length (s_start st)) <= Consts.NUM_TO_KEEP ->
  (client_of st a = KCloseStopOffered -> exists h st' o, cstep c st (LProc h) = StepOk st' o) /\
  (client_of st a = KPolCloseStopOffered -> exists h st' o, cstep c st (LWorker h) = StepOk st' o).
Proof.
  intros c mc t now st a _ SY RU.
  exact (blocked_close_has_a_moving_partner c mc t now st a SY (reach_u64_reach c _ st RU)).
Qed.
Print Assumptions C12_blocked_close_has_a_moving_partner.

(* ... and in the async flavour no closer ever waits in a stop handshake at all (every reachable
   state): the stop channels hold one message, at most one client is inside close(), and only that
   closer sends, so each stop message is buffered at once. *)
Theorem C12_async_close_never_waits :
  forall c mc t now st,
  c_async c = true -> reach c (cinit c mc t now) st ->
  forall a, client_of st a <> KCloseStopOffered /\ client_of st a <> KPolCloseStopOffered.
Proof. exact async_close_never_waits. Qed.
Print Assumptions C12_async_close_never_waits.
