(* CacheBarrier.v — property C10, the barrier end to end.  Identifiers of wait markers and clear
   signals are fresh (IdBound), so a wait marker is never released by a clear acknowledgement; hence
   when it is released every buffer slot that was ahead of it has been consumed.  At the end, C10
   for remove(). *)
From StrettoModel Require Import Cache CacheSteps CacheInv CacheFifo CacheClearLive.
Open Scope N_scope.

Lemma next_id_step c st l st' o : cstep c st l = StepOk st' o ->
  s_next_id st' = s_next_id st \/ s_next_id st' = s_next_id st + 1.
Proof. intros H. step_cases H; auto. Qed.

Lemma sigs_step c st l st' o x : cstep c st l = StepOk st' o -> In x (s_clear_sigs st') ->
  In x (s_clear_sigs st) \/ (x = s_next_id st /\ s_next_id st' = s_next_id st + 1).
Proof.
  intros H. step_cases H; auto; try (intros []).
  (* ClClearSent, ClCloseClears *)
  1-2: intros X; apply in_app_or in X; destruct X as [X|[<-|[]]]; auto.
  (* PrClear *)
  intros X. left. match goal with E : s_clear_sigs _ = _ |- _ => rewrite E end. right. exact X.
Qed.

Lemma clearing_step c st l st' o x : cstep c st l = StepOk st' o -> clearing (s_pc st') x ->
  clearing (s_pc st) x \/ In x (s_clear_sigs st).
Proof.
  intros H. unfold clearing. step_cases H; auto; known; auto.
  all: intros [X|[X|X]]; try discriminate X; injection X as ->; auto.
  (* PrClear *)
  right. match goal with E : s_clear_sigs _ = _ |- _ => rewrite E end. left. reflexivity.
Qed.

Definition holds_marker (st : cstate) (x : N) : Prop := exists a k, client_of st a = KInsSend (IWait x) k.

(* an inserter is given a New or an Update item to send, never a wait marker *)
Lemma holds_marker_step c st l st' o x : cstep c st l = StepOk st' o -> holds_marker st' x -> holds_marker st x.
Proof.
  intros H (b & kb & X). exists b, kb. revert X. step_cases H; clients; auto.
  all: destruct (N.eqb_spec b a) as [->|_]; [discriminate|auto].
Qed.

Lemma buf_marker_step c st l st' o x : cstep c st l = StepOk st' o -> In (IWait x) (s_buf st') ->
  In (IWait x) (s_buf st) \/ holds_marker st x \/ (x = s_next_id st /\ s_next_id st' = s_next_id st + 1).
Proof.
  intros H. step_cases H; auto; try (intros []).
  (* PrNew, PrUpdate, PrDelete, PrWait *)
  4-7: intros X; left; match goal with E : s_buf _ = _ |- _ => rewrite E end; right; exact X.
  (* ClInsSent, ClRemSent, ClWaitSent (a marker with the counter's value) *)
  all: intros X; apply in_app_or in X; destruct X as [X|[X|[]]]; auto.
  - subst. right. left. eexists. eexists. eassumption.
  - discriminate X.
  - injection X as <-. auto.
Qed.

Definition has_id (st : cstate) (x : N) : Prop :=
  In (IWait x) (s_buf st) \/ holds_marker st x \/ In x (s_clear_sigs st) \/ clearing (s_pc st) x \/ mem_N x (s_done st) = true.

Definition IdBound (st : cstate) : Prop := forall x, has_id st x -> x < s_next_id st.

Lemma has_id_step c st l st' o x : cstep c st l = StepOk st' o -> has_id st' x ->
  has_id st x \/ (x = s_next_id st /\ s_next_id st' = s_next_id st + 1).
Proof.
  unfold has_id. intros H [X|[X|[X|[X|X]]]].
  - destruct (buf_marker_step _ _ _ _ _ _ H X) as [Y|[Y|Y]]; auto.
  - left. right. left. eapply holds_marker_step; eassumption.
  - destruct (sigs_step _ _ _ _ _ _ H X) as [Y|Y]; auto.
  - destruct (clearing_step _ _ _ _ _ _ H X) as [Y|Y]; auto 6.
  - destruct (mem_N x (s_done st)) eqn:D; [auto 6|]. left.
    destruct (marker_released_only_by _ _ _ _ _ _ H D X) as [h r _ _ _ B|h _ _ _ [B|B]|h _ B]; unfold clearing; auto 7.
    left. rewrite B. left. reflexivity.
Qed.

Theorem IdBound_step c st l st' o : IdBound st -> cstep c st l = StepOk st' o -> IdBound st'.
Proof.
  intros I H x X. destruct (has_id_step _ _ _ _ _ _ H X) as [Y|(-> & E)].
  - specialize (I x Y). destruct (next_id_step _ _ _ _ _ H) as [E|E]; rewrite E; lia.
  - lia.
Qed.

Theorem reachable_IdBound c mc t now st : reach c (cinit c mc t now) st -> IdBound st.
Proof.
  apply (reach_ind_inv c (cinit c mc t now) IdBound).
  - intros x [X|[(a & k & X)|[X|[[X|[X|X]]|X]]]]; try (destruct X; fail); try discriminate X.
  - exact (IdBound_step c).
Qed.

(* a new clear signal gets the counter's value, which is above id *)
Definition NotClear (st : cstate) (id : N) : Prop :=
  id < s_next_id st /\ ~ In id (s_clear_sigs st) /\ ~ clearing (s_pc st) id.

Lemma NotClear_step c st l st' o id : NotClear st id -> cstep c st l = StepOk st' o -> NotClear st' id.
Proof.
  intros (B & S & P) H. split; [|split].
  - destruct (next_id_step _ _ _ _ _ H) as [E|E]; rewrite E; lia.
  - intros X. destruct (sigs_step _ _ _ _ _ _ H X) as [Y|(Y & _)]; [exact (S Y)|lia].
  - intros X. destruct (clearing_step _ _ _ _ _ _ H X) as [Y|Y]; [exact (P Y)|exact (S Y)].
Qed.

Lemma drain_empties c st h st' o :
  cstep c st (LProc h) = StepOk st' o -> s_pc st = PIdle -> h_arm h = Some ArmClear \/ h_arm h = Some ArmStop -> s_buf st' = [].
Proof.
  intros H PC A. cbn [cstep] in H. apply proc_step_rule in H.
  destruct H; sproj; try congruence; destruct A; congruence.
Qed.

(* n: the slots ahead of the marker not consumed yet.  The buffer shrinks only when the processor
   takes its head or drains it (buffer_is_fifo), so n goes down by the shrinkage *)
Definition consumed (st st' : cstate) : nat := (length (s_buf st) - length (s_buf st'))%nat.

Inductive btrace (c : cfg) (st0 : cstate) (n0 : nat) : cstate -> nat -> Prop :=
| bt_refl : btrace c st0 n0 st0 n0
| bt_step st n l st' o : btrace c st0 n0 st n -> cstep c st l = StepOk st' o -> btrace c st0 n0 st' (n - consumed st st')%nat.

Lemma consumed_only_by_processor c st l st' o :
  cstep c st l = StepOk st' o -> (0 < consumed st st')%nat ->
  exists h, l = LProc h /\ s_pc st = PIdle /\
    ((h_arm h = Some ArmItem /\ exists it, s_buf st = it :: s_buf st') \/
     ((h_arm h = Some ArmClear \/ h_arm h = Some ArmStop) /\ s_buf st' = [])).
Proof.
  intros H C. unfold consumed in C. destruct (buffer_is_fifo _ _ _ _ _ H) as [E|a it _ E|h it L PC A E|h L PC A E].
  - rewrite E in C. lia.
  - rewrite E, app_length in C. cbn [length] in C. lia.
  - exists h. split; [exact L|split; [exact PC|left; split; [exact A|exists it; exact E]]].
  - exists h. split; [exact L|split; [exact PC|right; split; [exact A|exact E]]].
Qed.

Definition ahead (st : cstate) (id : N) (n : nat) : Prop :=
  mem_N id (s_done st) = false /\ NotClear st id /\
  exists pre post, s_buf st = pre ++ IWait id :: post /\ ~ In (IWait id) pre /\ (n <= length pre)%nat.

Lemma ahead_step c st l st' o id n :
  ahead st id n -> cstep c st l = StepOk st' o -> ahead st' id (n - consumed st st') \/ (n - consumed st st' = 0)%nat.
Proof.
  intros (D & NC & pre & post & B & NI & LE) H. unfold consumed.
  assert (NC' := NotClear_step _ _ _ _ _ _ NC H).
  destruct (mem_N id (s_done st')) eqn:D'.
  - (* released by this step *)
    right. destruct (marker_released_only_by _ _ _ _ _ _ H D D') as [h r L PC A B1|h L PC A _|h L PC].
    + (* taken at the head of the buffer, so pre = [] *)
      rewrite B in B1. destruct pre as [|p pre]; [cbn [length] in LE; lia|].
      injection B1 as -> _. destruct NI. left. reflexivity.
    + (* by a drain, which consumes every slot *)
      subst l. rewrite (drain_empties _ _ _ _ _ H PC A), B, app_length. cbn [length]. lia.
    + (* not by a clear acknowledgement: id is no clear signal *)
      destruct NC as (_ & _ & P). destruct P. right. right. exact PC.
  - (* still queued; n - consumed <= n, so only the case that shortens pre needs the lengths *)
    destruct (buffer_is_fifo _ _ _ _ _ H) as [E|a it _ E|h it L PC A E|h L PC A E].
    + left. split; [exact D'|split; [exact NC'|]]. exists pre, post. rewrite E. split; [exact B|split; [exact NI|lia]].
    + (* a send goes behind the marker *)
      left. split; [exact D'|split; [exact NC'|]]. exists pre, (post ++ [it]). rewrite E, B, <- app_assoc.
      split; [reflexivity|split; [exact NI|lia]].
    + (* the head goes; it is not the marker, so pre = p :: pre' and n drops by one *)
      rewrite E. cbn [length]. rewrite B in E. destruct pre as [|p pre]; [right; cbn [length] in LE; lia|]. injection E as _ E.
      left. split; [exact D'|split; [exact NC'|]]. exists pre, post. split; [symmetry; exact E|split].
      * intros X. apply NI. right. exact X.
      * cbn [length] in LE. lia.
    + (* a drain *)
      right. rewrite E, B, app_length. cbn [length]. lia.
Qed.

Lemma ahead_trace c st0 id n0 st n :
  btrace c st0 n0 st n -> ahead st0 id n0 -> ahead st id n \/ n = 0%nat.
Proof.
  intros T A0. induction T as [|st n l st' o T IH S]; [left; exact A0|].
  destruct IH as [A| ->]; [eapply ahead_step; eassumption|right; reflexivity].
Qed.

Lemma wait_send_ahead c st a st1 o id :
  IdBound st -> client_of st a = KWaitStart ->
  cstep c st (LClient a) = StepOk st1 o -> client_of st1 a = KWaitAfterSend id ->
  ahead st1 id (length (s_buf st)).
Proof.
  intros I K H W. cbn [cstep] in H. apply continue_client_rule in H.
  (* ClWaitSent; ClWaitFull leaves the client idle *)
  destruct H; try congruence; revert W; clients; rewrite N.eqb_refl; [|discriminate]. intros [= <-].
  (* the marker's identifier is the counter's value, which nothing in use has reached *)
  assert (F : ~ has_id st (s_next_id st)) by (intros X; specialize (I _ X); lia).
  unfold has_id in F. split; [|split; [split; [|split]|]]; sproj.
  - destruct (mem_N _ _) eqn:M; [exfalso; tauto|reflexivity].
  - lia.
  - tauto.
  - tauto.
  - exists (s_buf st), []. split; [reflexivity|split; [tauto|lia]].
Qed.

(* C10, the barrier.  A thread inside wait() (past its is_closed check) queues its marker in a
   reachable state st0.  Along any continuation n counts down the slots then in the buffer as the
   processor consumes them.  Once the marker is released (wait() can return Ok) n is zero:
   everything queued before the marker, in particular what the same thread sent before calling
   wait(), has been taken by the processor or discarded by a drain for clear() / close(). *)
Theorem wait_is_a_barrier c mc t now st0 a st1 id st n :
  reach c (cinit c mc t now) st0 -> client_of st0 a = KWaitStart ->
  cstep c st0 (LClient a) = StepOk st1 (mk_out PtWaitAfterSend [] RNone) -> client_of st1 a = KWaitAfterSend id ->
  btrace c st1 (length (s_buf st0)) st n ->
  mem_N id (s_done st) = true -> n = 0%nat.
Proof.
  intros R K H W T D.
  pose proof (wait_send_ahead c st0 a st1 _ id (reachable_IdBound _ _ _ _ _ R) K H W) as A.
  destruct (ahead_trace _ _ _ _ _ _ T A) as [(D' & _)|E]; [congruence|exact E].
Qed.

(* C10: and the marker is released only while the processor is at its loop head, between two items:
   what it took before has been handled completely *)
Theorem marker_released_between_items c st l st' o id n :
  ahead st id n -> cstep c st l = StepOk st' o -> mem_N id (s_done st') = true ->
  s_pc st = PIdle /\ exists h, l = LProc h.
Proof.
  intros (D & NC & _) H D'. destruct (marker_released_only_by _ _ _ _ _ _ H D D') as [h r L PC A B1|h L PC A _|h L PC].
  - split; [exact PC|exists h; exact L].
  - split; [exact PC|exists h; exact L].
  - exfalso. destruct NC as (_ & _ & P). apply P. right. right. exact PC.
Qed.

(* an executable form of the slot count, for examples *)
Fixpoint brun (c : cfg) (st : cstate) (n : nat) (ls : list label) : option (cstate * nat) :=
  match ls with
  | [] => Some (st, n)
  | l :: r => match cstep c st l with StepOk st' _ => brun c st' (n - consumed st st')%nat r | _ => None end
  end.

Lemma btrace_front c st0 n0 l st1 o st n :
  cstep c st0 l = StepOk st1 o -> btrace c st1 (n0 - consumed st0 st1)%nat st n -> btrace c st0 n0 st n.
Proof.
  intros H T. induction T as [|s m l' s' o' T IH S].
  - eapply bt_step; [apply bt_refl|exact H].
  - eapply bt_step; [exact IH|exact S].
Qed.

Lemma brun_btrace c ls : forall st0 n0 st n, brun c st0 n0 ls = Some (st, n) -> btrace c st0 n0 st n.
Proof.
  induction ls as [|l r IH]; intros st0 n0 st n; cbn [brun].
  - intros H; inversion H; subst. apply bt_refl.
  - destruct (cstep c st0 l) as [st1 o| | | ] eqn:S; try discriminate. intros H. eapply btrace_front; [exact S|apply IH; exact H].
Qed.

(* C10, remove(): it never returns without having queued its Delete marker behind everything already
   in the buffer, unless the processor has exited (the cache is closed); it reports Ok in both
   cases, and there is no other outcome *)
Theorem remove_queues_its_marker c st a k cf st' o :
  client_of st a = KRemSend k cf -> cstep c st (LClient a) = StepOk st' o ->
  o = mk_out PtFinish [] (RUnit true) /\ client_of st' a = KIdle /\
  (s_buf st' = s_buf st ++ [IDelete k cf] \/ (s_pc st = PExited /\ s_buf st' = s_buf st)).
Proof.
  intros K H. cbn [cstep] in H. apply continue_client_rule in H.
  destruct H; try congruence; clients; rewrite N.eqb_refl; sproj; (split; [reflexivity|split; [reflexivity|]]).
  - (* ClRemSent *) left. congruence.
  - (* ClRemExited *) right. auto.
Qed.

(* C10: a remove() waiting for room can finish right now, or the buffer is full in front of a live
   processor (which can take the head item: CacheProgress.v) *)
Theorem remove_never_stuck c st a k cf :
  client_of st a = KRemSend k cf ->
  (exists st', cstep c st (LClient a) = StepOk st' (mk_out PtFinish [] (RUnit true))) \/
  (s_pc st <> PExited /\ c_buf_cap c <= N.of_nat (length (s_buf st))).
Proof.
  intros K. cbn [cstep]. unfold continue_client. rewrite K. unfold buf_send.
  destruct (s_pc st) eqn:PC;
    try (destruct (N.ltb_spec (N.of_nat (length (s_buf st))) (c_buf_cap c)) as [L|L];
         [left; eexists; reflexivity|right; split; [discriminate|exact L]]).
  left. eexists. reflexivity.
Qed.
