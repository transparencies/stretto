(* CacheProgress.v — C10, progress of the processor: at its loop head with a non-empty insert buffer
   it can always take the head item (a New item: under the canonical, legal choice of eviction
   samples the admission decision comes to an end).  With "never stranded" (C10 / C11) this is what
   weak fairness of select! needs for "wait(), clear() and remove() return". *)
From StrettoModel Require Import PolicyProofs PolicyLive Cache CacheSteps CacheProofs CacheInv CacheNoPanic.
Open Scope N_scope.

Theorem processor_can_take_the_head_item c st it r :
  WF (s_slfu st) -> s_pc st = PIdle -> s_buf st = it :: r ->
  exists h st' o, h_arm h = Some ArmItem /\ proc_step c st h = StepOk st' o /\ s_buf st' = r.
Proof.
  intros W PC B.
  assert (HD : forall h, h_arm h = Some ArmItem -> proc_step c st h = proc_handle_item c (upd_buf st r) h it).
  { intros h A. unfold proc_step. rewrite PC, A, B. reflexivity. }
  destruct it as [k cf cost v exp|k cost ext|k cf|id]; cbn [proc_handle_item] in HD; sproj.
  2-4: exists (arm_hint ArmItem); rewrite HD by reflexivity.
  - (* only a New item consults the hint: for eviction samples on which the admission comes to an end *)
    destruct (pol_add_returns (est_of (s_tlfu st)) (s_slfu st) k (internal_cost c cost) (est_of_small (s_tlfu st)) W) as (oracle & RT).
    exists {| h_arm := Some ArmItem; h_oracle := oracle; h_tick_key := None |}. rewrite HD by reflexivity.
    destruct (pol_add _ _ _ _ _) eqn:PA; cbn [returns] in RT; try contradiction.
    + destruct (pol_add_no_panic _ _ _ _ _ (est_of_small _ _) PA).
    + rewrite emit_eq. eexists; eexists; repeat split.
  - destruct (sl_update _ _ _) as [[s' b] mets]. rewrite emit_eq. eexists; eexists; repeat split.
  - destruct (pol_remove _ _) as [s' mets]. rewrite emit_eq. eexists; eexists; repeat split.
  - eexists; eexists; repeat split.
Qed.

Theorem reachable_processor_can_take_the_head_item c mc t now st it r :
  reach c (cinit c mc t now) st -> s_pc st = PIdle -> s_buf st = it :: r ->
  exists h st' o, h_arm h = Some ArmItem /\ proc_step c st h = StepOk st' o /\ s_buf st' = r.
Proof.
  intros R. eapply processor_can_take_the_head_item, reach_WF, R.
Qed.

Definition first_key (rest : amap N) : option N := match rest with [] => None | (k, _) :: _ => Some k end.

Definition mid_hint (p : ppc) : hint :=
  {| h_arm := None; h_oracle := [];
     h_tick_key := match p with PTickKey _ _ rest _ => first_key rest | PTickAfterPolicy _ _ _ rest _ => first_key rest | _ => None end |}.

Lemma prepare_evicts_total c cbs st : SO st -> exists st1, prepare_evicts c st cbs = Some st1.
Proof.
  intros S. pose proof (prepare_evicts_SO c cbs st _ eq_refl S) as X.
  destruct (prepare_evicts c st cbs) as [st1|]; [eauto|destruct X].
Qed.

Lemma tick_next_first_key c st rest acc :
  SO st -> exists st' o, tick_next c st {| h_arm := None; h_oracle := []; h_tick_key := first_key rest |} rest acc = StepOk st' o.
Proof.
  intros S. unfold tick_next. destruct rest as [|[k cf] rest'].
  - destruct (prepare_evicts_total c acc st S) as (st1 & ->). eauto.
  - cbn [h_tick_key first_key aget]. rewrite N.eqb_refl. eauto.
Qed.

(* C10: from every program point other than the loop head the processor can make its next step.
   SO, the invariant on admission times behind C20, keeps Time::elapsed from panicking where
   on_evict callbacks are prepared; the hypothesis on the admission-time table excludes only the
   pruning of more than NUM_TO_KEEP tracked keys, which the model does not cover. *)
Theorem processor_never_blocks_mid_item c st :
  SO st -> s_pc st <> PIdle -> s_pc st <> PExited ->
  N.of_nat (length (s_start st)) <= Consts.NUM_TO_KEEP ->
  exists st' o, proc_step c st (mid_hint (s_pc st)) = StepOk st' o.
Proof.
  intros S P1 P2 LS. unfold proc_step. destruct (s_pc st) eqn:PC; try congruence; cbn [mid_hint h_tick_key].
  - (* PNewAfterAdd *) destruct added; [|eauto]. unfold track_admission. rewrite emit_eq. sproj.
    destruct (c_metrics c); [|eauto]. destruct (N.ltb_spec Consts.NUM_TO_KEEP (N.of_nat (length (s_start st)))); [lia|eauto].
  - (* PNewAfterStore *) destruct (next_victim st victims). eauto.
  - (* PNewVictim *) destruct v as [vk vcost]. destruct (st_try_remove _ _ _) as [sto prev].
    destruct (prepare_evicts_total c (evict_cb vk prev vcost) (upd_store st sto) S) as (st1 & E).
    unfold evict_cb in E. rewrite E. destruct (next_victim _ _). eauto.
  - (* PDelAfterPolicy *) destruct (st_try_remove _ _ _). eauto.
  - (* PClearAfterDrain *) eauto.
  - (* PClearAfterPolicy *) eauto.
  - (* PClearAfterStore *) eauto.
  - (* PTickKey *) destruct (st_expiration _ _) as [t|]; [destruct (_ && _); [destruct (pol_remove _ _); eauto|]|];
      apply tick_next_first_key; exact S.
  - (* PTickAfterPolicy *) destruct (st_try_remove _ _ _) as [sto prev]. apply tick_next_first_key. exact S.
Qed.
