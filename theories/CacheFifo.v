(* CacheFifo.v — property C10, the barrier: the insert buffer is a FIFO that only the processor
   consumes, from its head or all at once (clear / stop), and only the processor releases wait
   markers. *)
From StrettoModel Require Import BaseProofs Cache CacheSteps.
Open Scope N_scope.

Inductive buf_change (st : cstate) (l : label) (st' : cstate) : Prop :=
| BcSame : s_buf st' = s_buf st -> buf_change st l st'
| BcSend a it : l = LClient a -> s_buf st' = s_buf st ++ [it] -> buf_change st l st'
| BcTake h it : l = LProc h -> s_pc st = PIdle -> h_arm h = Some ArmItem -> s_buf st = it :: s_buf st' -> buf_change st l st'
| BcDrain h : l = LProc h -> s_pc st = PIdle -> (h_arm h = Some ArmClear \/ h_arm h = Some ArmStop) -> s_buf st' = [] -> buf_change st l st'.

Theorem buffer_is_fifo c st l st' o : cstep c st l = StepOk st' o -> buf_change st l st'.
Proof.
  intros H. step_cases H; try (apply BcSame; reflexivity).
  (* ClInsSent, ClRemSent, ClWaitSent *)
  1-3: eapply BcSend; reflexivity.
  (* PrNew, PrUpdate, PrDelete, PrWait *)
  1-4: eapply BcTake; [reflexivity|assumption|assumption|eassumption].
  (* PrClear, PrStop *)
  all: eapply BcDrain; [reflexivity|assumption|auto|reflexivity].
Qed.

Inductive release_cause (st : cstate) (l : label) (id : N) : Prop :=
| RcHead h r : l = LProc h -> s_pc st = PIdle -> h_arm h = Some ArmItem -> s_buf st = IWait id :: r -> release_cause st l id
| RcDrain h : l = LProc h -> s_pc st = PIdle -> (h_arm h = Some ArmClear \/ h_arm h = Some ArmStop) ->
              (In (IWait id) (s_buf st) \/ In id (s_clear_sigs st)) -> release_cause st l id
| RcClearAck h : l = LProc h -> s_pc st = PClearAfterStore id -> release_cause st l id.

Lemma mem_N_new id x d : mem_N id d = false -> mem_N id (x :: d) = true -> id = x.
Proof. cbn [mem_N]. intros ->. rewrite orb_false_r. apply N.eqb_eq. Qed.

(* C10: a wait marker (or a clear signal) is released only by the processor: taking the marker at the
   head of the buffer, draining the buffer (clear / stop), or acknowledging a clear *)
Theorem marker_released_only_by c st l st' o id :
  cstep c st l = StepOk st' o -> mem_N id (s_done st) = false -> mem_N id (s_done st') = true -> release_cause st l id.
Proof.
  intros H N. step_cases H; try congruence; intros Y.
  (* PrStop, buffered or offered: pending clear signals are released with the markers *)
  3-4: rewrite mem_N_app, orb_true_iff, mem_N_In, drain_items_done in Y;
    eapply RcDrain; [reflexivity|assumption|auto|]; intuition congruence.
  - (* PrWait *) apply (mem_N_new _ _ _ N) in Y. subst. eapply RcHead; [reflexivity|eassumption..].
  - (* PrClear *) apply drain_items_done in Y. destruct Y as [Y|Y]; [congruence|].
    eapply RcDrain; [reflexivity|assumption|auto|auto].
  - (* PrClearAck *) apply (mem_N_new _ _ _ N) in Y. subst. eapply RcClearAck; [reflexivity|assumption].
Qed.
