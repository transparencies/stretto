(* BloomProofs.v — the doorkeeper Bloom filter (C14). *)
From StrettoModel Require Import BaseProofs Bloom.
From Coq Require Import ZifyBool ZifyN.

Open Scope N_scope.

(* the bit array as a function of the bit position *)
Definition bit (ws : list N) (p : N) : bool :=
  match nth_error ws (word_of p) with
  | Some x => N.testbit x (p mod 64)
  | None => false
  end.

(* byte-then-bit addressing inside a little-endian word is plain bit p mod 64 *)
Lemma bit_in_word_mod idx : bit_in_word idx = idx mod 64.
Proof. unfold bit_in_word. lia. Qed.

Lemma word_of_div p : word_of p = N.to_nat (p / 64).
Proof. unfold word_of. rewrite N.shiftr_div_pow2. reflexivity. Qed.

Theorem bit_addressing_injective p q :
  word_of p = word_of q -> bit_in_word p = bit_in_word q -> p = q.
Proof. rewrite !word_of_div, !bit_in_word_mod. lia. Qed.

Lemma ws_is_set_bit ws idx v : ws_is_set ws idx = Some v -> v = bit ws idx.
Proof.
  unfold ws_is_set, bit. rewrite bit_in_word_mod. destruct (nth_error ws (word_of idx)); [|discriminate].
  intros H; inversion H; reflexivity.
Qed.

Lemma ws_is_set_some ws idx : (word_of idx < length ws)%nat -> ws_is_set ws idx = Some (bit ws idx).
Proof.
  intros H. unfold ws_is_set, bit. rewrite bit_in_word_mod.
  destruct (nth_error ws (word_of idx)) eqn:E; [reflexivity|]. apply nth_error_None in E. lia.
Qed.

Lemma ws_set_spec ws idx ws' :
  ws_set ws idx = Some ws' ->
  length ws' = length ws /\ forall p, bit ws' p = N.eqb p idx || bit ws p.
Proof.
  unfold ws_set. rewrite N.shiftl_1_l. destruct (nth_error ws (word_of idx)) as [x|] eqn:E; [|discriminate].
  intros [= <-]. split; [apply length_list_set|].
  assert (Hlt : (word_of idx < length ws)%nat) by (apply nth_error_Some; congruence).
  intros p. unfold bit. destruct (Nat.eq_dec (word_of p) (word_of idx)) as [Hw|Hw].
  - rewrite Hw, nth_error_list_set_same, E by assumption.
    rewrite N.lor_spec, N.pow2_bits_eqb, bit_in_word_mod, orb_comm. f_equal.
    rewrite !word_of_div in Hw. lia.
  - rewrite nth_error_list_set_other by auto.
    destruct (N.eqb_spec p idx) as [->|_]; [congruence|reflexivity].
Qed.

Lemma ws_set_some ws idx : (word_of idx < length ws)%nat -> exists ws', ws_set ws idx = Some ws'.
Proof.
  intros H. unfold ws_set. destruct (nth_error ws (word_of idx)) eqn:E; [eauto|].
  apply nth_error_None in E. lia.
Qed.

Definition bl_wf (b : bloom) : Prop :=
  N.of_nat (length (bl_words b)) * 64 = bl_size b + 1 /\
  bl_size b + 1 = 2 ^ bl_exp b /\ bl_shift b = 64 - bl_exp b /\ bl_exp b <= 64 /\
  bl_locs b * 2 ^ bl_exp b <= two64.

Lemma hi_lo_bounds b hash : bl_wf b -> hash < two64 ->
  bl_hi b hash < 2 ^ bl_exp b /\ bl_lo b hash < 2 ^ bl_exp b.
Proof.
  intros (_ & _ & Hs & He & _) Hh. unfold bl_hi, bl_lo. rewrite Hs, !N.shiftr_div_pow2.
  assert (P : 2 ^ (64 - bl_exp b) * 2 ^ bl_exp b = two64).
  { rewrite <- N.pow_add_r. replace (64 - bl_exp b + bl_exp b) with 64 by lia. reflexivity. }
  assert (Pp : 0 < 2 ^ (64 - bl_exp b)) by (apply N.neq_0_lt_0, N.pow_nonzero; lia).
  assert (W : wrap64 (N.shiftl hash (64 - bl_exp b)) < two64) by (unfold wrap64; apply N.mod_lt; unfold two64; lia).
  split; apply N.div_lt_upper_bound; lia.
Qed.

Lemma loc_some b hash i : bl_wf b -> hash < two64 -> i < bl_locs b ->
  exists idx, bl_loc b hash i = Some idx /\ (word_of idx < length (bl_words b))%nat.
Proof.
  intros W Hh Hi. destruct (hi_lo_bounds b hash W Hh) as (H1 & H2).
  destruct W as (L & _ & _ & _ & Hov). unfold bl_loc.
  (* hi, lo < 2^exp and i < locs, so hi + i * lo < (i + 1) * 2^exp <= locs * 2^exp <= 2^64 *)
  assert (bl_hi b hash + i * bl_lo b hash < two64) as Hlt by nia.
  apply N.ltb_lt in Hlt. rewrite Hlt. eexists. split; [reflexivity|].
  pose proof (land_le_mask (bl_hi b hash + i * bl_lo b hash) (bl_size b)). rewrite word_of_div. lia.
Qed.

Lemma with_words_wf b ws : bl_wf b -> length ws = length (bl_words b) -> bl_wf (with_words b ws).
Proof. unfold bl_wf; cbn [with_words bl_words bl_size bl_exp bl_locs bl_shift]. intros W ->. exact W. Qed.

Lemma ws_add_spec b hash : bl_wf b -> hash < two64 -> forall n ws i,
  length ws = length (bl_words b) -> i + N.of_nat n <= bl_locs b ->
  exists ws', ws_add b hash ws i n = Some ws' /\ length ws' = length ws /\
    forall p, bit ws' p = true <->
      bit ws p = true \/ exists j, i <= j < i + N.of_nat n /\ bl_loc b hash j = Some p.
Proof.
  intros W Hh. induction n as [|n IH]; intros ws i Hl Hi; cbn [ws_add].
  - exists ws. split; [reflexivity|]. split; [reflexivity|]. intros p. split; [auto|].
    intros [H|(j & Hj & _)]; [assumption|lia].
  - destruct (loc_some b hash i W Hh ltac:(lia)) as (idx & Hloc & Hw). rewrite Hloc. rewrite <- Hl in Hw.
    destruct (ws_set_some ws idx Hw) as (ws1 & Hset). rewrite Hset.
    destruct (ws_set_spec ws idx ws1 Hset) as (L1 & B1).
    destruct (IH ws1 (i + 1) ltac:(congruence) ltac:(lia)) as (ws' & Hadd & L' & B').
    exists ws'. split; [assumption|]. split; [congruence|].
    intros p. rewrite B', B1, orb_true_iff, N.eqb_eq. split.
    + intros [[->|H]|(j & Hj & Hlj)]; [right; exists i; split; [lia|assumption]|auto|right; exists j; split; [lia|assumption]].
    + intros [H|(j & Hj & Hlj)]; [auto|].
      destruct (N.eq_dec j i) as [->|Hne].
      * left. left. congruence.
      * right. exists j. split; [lia|assumption].
Qed.

Theorem bl_add_spec b hash : bl_wf b -> hash < two64 ->
  exists b', bl_add b hash = Some b' /\ bl_wf b' /\
    bl_size b' = bl_size b /\ bl_exp b' = bl_exp b /\ bl_locs b' = bl_locs b /\ bl_shift b' = bl_shift b /\
    forall p, bit (bl_words b') p = true <->
      bit (bl_words b) p = true \/ exists j, j < bl_locs b /\ bl_loc b hash j = Some p.
Proof.
  intros W Hh.
  destruct (ws_add_spec b hash W Hh (N.to_nat (bl_locs b)) (bl_words b) 0 eq_refl ltac:(lia))
    as (ws' & Hadd & L' & B').
  unfold bl_add. rewrite Hadd. eexists. split; [reflexivity|].
  split; [apply with_words_wf; assumption|]. do 4 (split; [reflexivity|]).
  intros p. rewrite B'.
  split; (intros [H|(j & Hj & Hlj)]; [auto|right; exists j; split; [lia|assumption]]).
Qed.

Lemma ws_contains_spec b hash : bl_wf b -> hash < two64 -> forall n i,
  i + N.of_nat n <= bl_locs b ->
  exists v, ws_contains b hash i n = Some v /\
    (v = true <-> forall j, i <= j < i + N.of_nat n ->
                    exists p, bl_loc b hash j = Some p /\ bit (bl_words b) p = true).
Proof.
  intros W Hh. induction n as [|n IH]; intros i Hi; cbn [ws_contains].
  - exists true. split; [reflexivity|]. split; [intros _ j Hj; lia|reflexivity].
  - destruct (loc_some b hash i W Hh ltac:(lia)) as (idx & Hloc & Hw).
    rewrite Hloc, (ws_is_set_some _ _ Hw). destruct (bit (bl_words b) idx) eqn:Bi.
    + destruct (IH (i + 1) ltac:(lia)) as (v & Hv & Hiff). exists v. split; [assumption|].
      rewrite Hiff. split.
      * intros H j Hj. destruct (N.eq_dec j i) as [->|Hne]; [exists idx; auto|apply H; lia].
      * intros H j Hj. apply H. lia.
    + exists false. split; [reflexivity|]. split; [discriminate|].
      intros H. destruct (H i ltac:(lia)) as (p & Hp & Hbit). congruence.
Qed.

Theorem bl_contains_spec b hash : bl_wf b -> hash < two64 ->
  exists v, bl_contains b hash = Some v /\
    (v = true <-> forall j, j < bl_locs b ->
                    exists p, bl_loc b hash j = Some p /\ bit (bl_words b) p = true).
Proof.
  intros W Hh. destruct (ws_contains_spec b hash W Hh (N.to_nat (bl_locs b)) 0 ltac:(lia)) as (v & Hv & Hiff).
  exists v. split; [exact Hv|]. rewrite Hiff. split; intros H j Hj; apply H; lia.
Qed.

Lemma bl_contains_true b g : bl_wf b -> g < two64 ->
  bl_contains b g = Some true <->
  forall j, j < bl_locs b -> exists p, bl_loc b g j = Some p /\ bit (bl_words b) p = true.
Proof.
  intros W Hg. destruct (bl_contains_spec b g W Hg) as (v & -> & <-). split; congruence.
Qed.

Lemma bl_loc_indep b b' hash j :
  bl_size b' = bl_size b -> bl_shift b' = bl_shift b -> bl_loc b' hash j = bl_loc b hash j.
Proof. intros H1 H2. unfold bl_loc, bl_hi, bl_lo. rewrite H1, H2. reflexivity. Qed.

Theorem bl_add_contains b hash b' : bl_wf b -> hash < two64 -> bl_add b hash = Some b' ->
  bl_wf b' /\ bl_contains b' hash = Some true /\
  forall g, g < two64 -> bl_contains b g = Some true -> bl_contains b' g = Some true.
Proof.
  intros W Hh Ha. destruct (bl_add_spec b hash W Hh) as (b2 & Ha2 & W2 & S1 & _ & S3 & S4 & B).
  rewrite Ha in Ha2. injection Ha2 as <-.
  assert (L : forall g j, bl_loc b' g j = bl_loc b g j) by (intros; apply bl_loc_indep; assumption).
  split; [assumption|]. split.
  - apply bl_contains_true; [assumption..|]. intros j Hj. rewrite S3 in Hj.
    destruct (loc_some b hash j W Hh Hj) as (p & Hp & _).
    exists p. rewrite L. split; [assumption|]. apply B. right. eauto.
  - intros g Hg Hc. apply bl_contains_true; [assumption..|]. intros j Hj. rewrite S3 in Hj.
    destruct (proj1 (bl_contains_true b g W Hg) Hc j Hj) as (p & Hp & Hb).
    exists p. rewrite L. split; [assumption|]. apply B. auto.
Qed.

Lemma bl_coa_cases b hash : bl_wf b -> hash < two64 ->
  (bl_contains b hash = Some true /\ bl_contains_or_add b hash = Some (false, b)) \/
  (bl_contains b hash = Some false /\
   exists b', bl_add b hash = Some b' /\ bl_contains_or_add b hash = Some (true, b')).
Proof.
  intros W Hh. unfold bl_contains_or_add. destruct (bl_contains_spec b hash W Hh) as ([|] & -> & _); [auto|].
  destruct (bl_add_spec b hash W Hh) as (b' & -> & _). right. eauto.
Qed.

(* with no bit set, the first probe already fails *)
Lemma bl_contains_empty b g : bl_wf b -> (forall p, bit (bl_words b) p = false) ->
  g < two64 -> 1 <= bl_locs b -> bl_contains b g = Some false.
Proof.
  intros W Z Hg Hl. destruct (bl_contains_spec b g W Hg) as ([|] & Hv & Hiff); [|exact Hv].
  destruct (proj1 Hiff eq_refl 0 ltac:(lia)) as (p & _ & Hb). rewrite Z in Hb. discriminate.
Qed.

Theorem bl_reset_spec b : bl_wf b ->
  bl_wf (bl_reset b) /\ (forall p, bit (bl_words (bl_reset b)) p = false) /\
  forall g, g < two64 -> 1 <= bl_locs b -> bl_contains (bl_reset b) g = Some false.
Proof.
  intros W. assert (W' : bl_wf (bl_reset b)) by (apply with_words_wf; [assumption|apply map_length]).
  assert (Z : forall p, bit (bl_words (bl_reset b)) p = false).
  { intros p. unfold bit, bl_reset, with_words; cbn [bl_words]. rewrite nth_error_map.
    destruct (nth_error (bl_words b) (word_of p)); [apply N.bits_0|reflexivity]. }
  split; [assumption|]. split; [assumption|]. intros g Hg Hl. apply bl_contains_empty; assumption.
Qed.

Theorem get_size_spec n : let '(sz, e) := get_size n in
  sz = 2 ^ e /\ N.max n 512 <= sz /\ 9 <= e /\ (e = 9 \/ 2 ^ (e - 1) < N.max n 512).
Proof.
  unfold get_size. set (m := N.max n 512). assert (Hm : 512 <= m) by (unfold m; lia).
  split; [reflexivity|]. assert (1 < m) by lia.
  destruct (N.log2_up_spec m H) as (Lo & Hi). split; [assumption|].
  assert (9 <= N.log2_up m).
  { change 9 with (N.log2_up 512). apply N.log2_up_le_mono. assumption. }
  split; [assumption|]. right. replace (N.log2_up m - 1) with (N.pred (N.log2_up m)) by lia. assumption.
Qed.

(* a filter built by Bloom::new is well-formed as soon as its probe count does not overflow u64 *)
Theorem bl_new_wf entries locs :
  N.log2_up (N.max entries 512) <= 64 -> locs * 2 ^ N.log2_up (N.max entries 512) <= two64 ->
  bl_wf (bl_new entries locs) /\ forall p, bit (bl_words (bl_new entries locs)) p = false.
Proof.
  intros He Hov. pose proof (get_size_spec entries) as G. unfold bl_new, get_size in *.
  cbv beta iota zeta in *. destruct G as (_ & G2 & G3 & _).
  set (e := N.log2_up (N.max entries 512)) in *.
  assert (P : 2 ^ e = 64 * 2 ^ (e - 6)).
  { change 64 with (2 ^ 6). rewrite <- N.pow_add_r. f_equal. lia. }
  split.
  - unfold bl_wf; cbn [bl_words bl_size bl_exp bl_locs bl_shift]. rewrite repeat_length.
    rewrite N.shiftr_div_pow2. change (2 ^ 6) with 64.
    assert (0 < 2 ^ e) by (apply N.neq_0_lt_0, N.pow_nonzero; lia).
    repeat split; lia.
  - intros p. unfold bit; cbn [bl_words]. destruct (nth_error _ _) as [x|] eqn:E; [|reflexivity].
    apply nth_error_In, repeat_spec in E. subst. apply N.bits_0.
Qed.

(* adding keeps the number of words, well-formed or not *)
Lemma ws_add_length b hash : forall n ws i ws', ws_add b hash ws i n = Some ws' -> length ws' = length ws.
Proof.
  induction n as [|n IH]; intros ws i ws'; cbn [ws_add].
  - intros H; inversion H; reflexivity.
  - destruct (bl_loc b hash i) as [idx|]; [|discriminate]. destruct (ws_set ws idx) as [ws1|] eqn:E; [|discriminate].
    intros H. rewrite (IH _ _ _ H). apply (ws_set_spec _ _ _ E).
Qed.
