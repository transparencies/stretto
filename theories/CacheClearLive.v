(* CacheClearLive.v — C11 (and C12, for the clear inside close()): clear() is never stranded: a
   client blocked on its clear signal has been acknowledged already, or its signal is still queued
   for a live processor, or the processor is performing that very clear. *)
From StrettoModel Require Import BaseProofs Cache CacheSteps CacheInv.
Open Scope N_scope.

Definition clearing (p : ppc) (id : N) : Prop :=
  p = PClearAfterDrain id \/ p = PClearAfterPolicy id \/ p = PClearAfterStore id.

Definition clear_ok (st : cstate) (id : N) : Prop :=
  mem_N id (s_done st) = true \/ (In id (s_clear_sigs st) /\ s_pc st <> PExited) \/ clearing (s_pc st) id.

Definition ClearWaitInv (st : cstate) : Prop :=
  forall a id closing, client_of st a = KClearBlock id closing -> clear_ok st id.

Lemma done_stays c st l st' o id :
  cstep c st l = StepOk st' o -> mem_N id (s_done st) = true -> mem_N id (s_done st') = true.
Proof.
  intros H D. step_cases H; try exact D.
  (* PrWait, PrClear, PrStop, PrClearAck *)
  all: cbn [mem_N]; rewrite ?mem_N_app, ?orb_true_iff, ?drain_items_done; auto.
Qed.

Lemma queued_sig_step c st l st' o id :
  cstep c st l = StepOk st' o -> In id (s_clear_sigs st) -> s_pc st <> PExited ->
  (In id (s_clear_sigs st') /\ s_pc st' <> PExited) \/ s_pc st' = PClearAfterDrain id \/ mem_N id (s_done st') = true.
Proof.
  intros H S P. step_cases H; auto using in_or_app; try (left; split; [exact S|discriminate]).
  (* PrStop, buffered or offered: every pending signal is released *)
  2-3: right; right; rewrite mem_N_app, orb_true_iff, mem_N_In; auto.
  (* PrClear: the signal taken is id, or id stays queued *)
  match goal with E : s_clear_sigs st = _ |- _ => rewrite E in S end.
  destruct S as [->|S]; [auto|left; split; [exact S|discriminate]].
Qed.

Lemma clearing_moves c st l st' o id :
  cstep c st l = StepOk st' o -> clearing (s_pc st) id -> clearing (s_pc st') id \/ mem_N id (s_done st') = true.
Proof.
  intros H C. unfold clearing in *. step_cases H; auto.
  (* only PrClearPolicy, PrClearStore, PrClearAck start at a stage of a clear *)
  all: match goal with E : s_pc _ = _ |- _ => rewrite E in C end; destruct C as [C|[C|C]]; try discriminate C.
  all: injection C as ->; cbn [mem_N]; rewrite ?N.eqb_refl; auto.
Qed.

Lemma clear_ok_step c st l st' o id :
  clear_ok st id -> cstep c st l = StepOk st' o -> clear_ok st' id.
Proof.
  unfold clear_ok. intros [D|[(S & P)|C]] H.
  - left. eapply done_stays; eassumption.
  - destruct (queued_sig_step _ _ _ _ _ _ H S P) as [Q|[Q|Q]]; unfold clearing; auto.
  - destruct (clearing_moves _ _ _ _ _ _ H C) as [Q|Q]; auto.
Qed.

Lemma clear_block_new c st l st' o b id cl :
  cstep c st l = StepOk st' o -> client_of st' b = KClearBlock id cl ->
  client_of st b = KClearBlock id cl \/ (In id (s_clear_sigs st') /\ s_pc st' <> PExited).
Proof.
  intros H. step_cases H; clients; auto.
  all: destruct (N.eqb_spec b a) as [->|_]; [|auto]; try discriminate.
  (* ClClearSent, ClCloseClears *)
  all: intros X; inversion X; subst; right; split; [apply in_or_app; right; left; reflexivity|assumption].
Qed.

Theorem ClearWaitInv_step c st l st' o : ClearWaitInv st -> cstep c st l = StepOk st' o -> ClearWaitInv st'.
Proof.
  intros I H b id cl X. destruct (clear_block_new c st l st' o b id cl H X) as [Y|Y].
  - eapply clear_ok_step; [exact (I b id cl Y)|exact H].
  - right. left. exact Y.
Qed.

(* C10/C11/C12: in every reachable state — either flavour, clear() and close() racing each other and
   everything else — a client blocked on its clear signal is not stranded *)
Theorem clear_never_stuck c mc t now st a id closing :
  reach c (cinit c mc t now) st -> client_of st a = KClearBlock id closing ->
  (exists st' o, continue_client c st a = StepOk st' o) \/
  (In id (s_clear_sigs st) /\ s_pc st <> PExited) \/ clearing (s_pc st) id.
Proof.
  intros R K.
  assert (I : ClearWaitInv st).
  { apply (reach_ind_inv c (cinit c mc t now) ClearWaitInv); [intros b i cl X; discriminate X|exact (ClearWaitInv_step c)|exact R]. }
  destruct (I a id closing K) as [D|[Q|C]]; [left|right; left; exact Q|right; right; exact C].
  unfold continue_client. rewrite K, D. destruct closing; eauto.
Qed.
