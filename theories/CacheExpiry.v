(* CacheExpiry.v — property C05, the listing invariant: every resident entry with a TTL is listed in
   the expiry index under the bucket of its current deadline — or is among the keys the running
   cleanup has taken out of a due bucket and not visited yet, and has expired.  Hence a cleanup tick
   reclaims every entry whose bucket is due, and no resident TTL entry is ever forgotten. *)
From StrettoModel Require Import BaseProofs StoreProofs Cache CacheSteps CacheAgree.
Open Scope N_scope.

Definition listed (em : emap) (b k : N) : Prop := exists bucket, aget b em = Some bucket /\ amem k bucket = true.

(* the bucket under b, empty when there is none: [em_put] and [em_unlist] write one bucket *)
Definition bucket_of (em : emap) (b : N) : amap N := match aget b em with Some bucket => bucket | None => [] end.

Lemma listed_bucket em b k : listed em b k <-> amem k (bucket_of em b) = true.
Proof.
  unfold listed, bucket_of. destruct (aget b em) as [bucket|]; split;
    [intros (x & [= <-] & M); exact M|eauto|intros (x & [=] & _)|discriminate].
Qed.

Lemma em_put_bucket em b k c b' :
  bucket_of (em_put em b k c) b' = if b' =? b then aset k c (bucket_of em b) else bucket_of em b'.
Proof.
  unfold em_put, bucket_of. destruct (N.eqb_spec b' b) as [->|Hb]; destruct (aget b em);
    rewrite ?aget_aset_same, ?aget_aset_other by assumption; reflexivity.
Qed.

Lemma em_unlist_bucket em b k b' :
  bucket_of (em_unlist em b k) b' = if b' =? b then adel k (bucket_of em b) else bucket_of em b'.
Proof.
  unfold em_unlist, bucket_of. destruct (N.eqb_spec b' b) as [->|Hb]; destruct (aget b em) eqn:G;
    rewrite ?aget_aset_same, ?aget_aset_other, ?G by assumption; reflexivity.
Qed.

Lemma em_put_listed em b k c b' k' : listed (em_put em b k c) b' k' <-> (b' = b /\ k' = k) \/ listed em b' k'.
Proof.
  rewrite !listed_bucket, em_put_bucket. destruct (N.eqb_spec b' b) as [->|Hb];
    [rewrite amem_aset, orb_true_iff, N.eqb_eq|]; intuition congruence.
Qed.

Lemma em_unlist_listed em b k b' k' : listed (em_unlist em b k) b' k' <-> listed em b' k' /\ (b' <> b \/ k' <> k).
Proof.
  rewrite !listed_bucket, em_unlist_bucket. destruct (N.eqb_spec b' b) as [->|Hb];
    [rewrite amem_adel, andb_true_iff, negb_true_iff, N.eqb_neq|]; intuition congruence.
Qed.

Lemma em_insert_listed em k c t b' k' :
  listed (em_insert em k c t) b' k' <-> (t_is_zero t = false /\ b' = storage_bucket t /\ k' = k) \/ listed em b' k'.
Proof. unfold em_insert. destruct (t_is_zero t); rewrite ?em_put_listed; intuition congruence. Qed.

Lemma em_remove_listed em k t b' k' :
  listed (if t_is_zero t then em else em_remove em k t) b' k' <->
  listed em b' k' /\ (t_is_zero t = true \/ b' <> storage_bucket t \/ k' <> k).
Proof. unfold em_remove. destruct (t_is_zero t); rewrite ?em_unlist_listed; intuition congruence. Qed.

Lemma em_update_eq em k c old new :
  em_update em k c old new = em_insert (if t_is_zero old then em else em_remove em k old) k c new.
Proof. unfold em_update, em_insert, em_remove. destruct (t_is_zero old), (t_is_zero new); reflexivity. Qed.

Lemma em_update_listed em k c old new b' k' :
  listed (em_update em k c old new) b' k' <->
  (t_is_zero new = false /\ b' = storage_bucket new /\ k' = k) \/
  (listed em b' k' /\ (t_is_zero old = true \/ b' <> storage_bucket old \/ k' <> k)).
Proof. rewrite em_update_eq, em_insert_listed, em_remove_listed. reflexivity. Qed.

Lemma cleanup_listed em now em' due b k :
  em_cleanup em now = (em', due) -> listed em' b k <-> listed em b k /\ cleanup_bucket now < b.
Proof.
  intros CL. destruct due as [m|].
  - unfold em_cleanup in CL. destruct (em_due em now); inversion CL. unfold listed, em_keep.
    rewrite (aget_filter_key (fun x => negb (x <=? cleanup_bucket now))).
    destruct (N.leb_spec b (cleanup_bucket now)); cbn [negb]; split;
      [intros (x & [=] & _)|intros (_ & X); lia|intros L; split; [exact L|assumption]|intros (L & _); exact L].
  - destruct (cleanup_nothing_due _ _ _ CL) as (-> & K). split; [intros L; split; [exact L|]|intros (L & _); exact L].
    destruct L as (x & X & _). eapply K, aget_In_pair, X.
Qed.

Lemma fold_bucket_mem k (bucket : amap N) : forall acc,
  amem k acc = true \/ amem k bucket = true ->
  amem k (fold_left (fun a kc => aset (fst kc) (snd kc) a) bucket acc) = true.
Proof.
  induction bucket as [|[k0 c0] bucket IH]; intros acc H; cbn [fold_left fst snd].
  - destruct H as [H|H]; [exact H|discriminate H].
  - apply IH. rewrite amem_aset. unfold amem at 2 in H. cbn [aget] in H.
    destruct (k =? k0); [left; reflexivity|exact H].
Qed.

Lemma fold_listings_mem k (l : emap) : forall acc,
  amem k acc = true \/ (exists b bucket, In (b, bucket) l /\ amem k bucket = true) ->
  amem k (fold_left (fun acc b => fold_left (fun a kc => aset (fst kc) (snd kc) a) (snd b) acc) l acc) = true.
Proof.
  induction l as [|[b0 bk0] l IH]; intros acc H; cbn [fold_left snd].
  - destruct H as [H|(b & bk & [] & _)]. exact H.
  - apply IH. destruct H as [H|(b & bk & [E|Hin] & M)].
    + left. apply fold_bucket_mem. left. exact H.
    + inversion E; subst. left. apply fold_bucket_mem. right. exact M.
    + right. eauto.
Qed.

Lemma cleanup_due em now em' due b k :
  em_cleanup em now = (em', due) -> listed em b k -> b <= cleanup_bucket now -> exists m, due = Some m /\ amem k m = true.
Proof.
  intros H (bucket & G & M) Hle. unfold em_cleanup in H.
  assert (Hd : In (b, bucket) (em_due em now)).
  { apply em_due_In. split; [apply aget_In_pair, G|exact Hle]. }
  destruct (em_due em now) as [|p d] eqn:D; [destruct Hd|]. inversion H; subst.
  eexists. split; [reflexivity|]. apply fold_listings_mem. right.
  exists b, bucket. split; [apply asort_In; exact Hd|exact M].
Qed.

Section Good.
(* Q k e: the entry is excused from being listed (it is pending in the running cleanup) *)
Variable Q : N -> time -> Prop.

Definition good (s : storage) (k : N) (e : entry) : Prop :=
  t_is_zero (e_exp e) = true \/ listed (st_em s) (storage_bucket (e_exp e)) k \/ Q k (e_exp e).
Definition all_good (s : storage) : Prop := forall k e, aget k (st_map s) = Some e -> good s k e.

Lemma good_other s s' k e : good s k e -> (forall b, listed (st_em s) b k -> listed (st_em s') b k) -> good s' k e.
Proof. intros [Z|[L|Qk]] I; [left; exact Z|right; left; apply I, L|right; right; exact Qk]. Qed.

Lemma all_good_wr P s s' : all_good s -> store_wr P s s' -> all_good s'.
Proof.
  intros A W k' e1. destruct W as [|k e v G|k e e' c G _|k e' c G _|k e G]; cbn [st_map]; [apply A|..].
  (* per case: the entry written, then the others *)
  all: destruct (N.eq_dec k' k) as [->|Hne];
    [rewrite ?aget_aset_same, ?aget_adel_same
    |rewrite ?aget_aset_other, ?aget_adel_other by assumption; intros X; apply (good_other s _ _ _ (A k' e1 X));
     cbn [st_em]; intros b L].
  - intros [= <-]. exact (A k e G).
  - exact L.
  - intros [= <-]. destruct (t_is_zero (e_exp e')) eqn:Z; [left; exact Z|right; left; apply em_update_listed; auto].
  - apply em_update_listed. auto.
  - intros [= <-]. destruct (t_is_zero (e_exp e')) eqn:Z; [left; exact Z|right; left; apply em_insert_listed; auto].
  - apply em_insert_listed. auto.
  - discriminate.
  - apply em_remove_listed. auto.
Qed.
End Good.

Definition pending (p : ppc) (k : N) : Prop :=
  match p with
  | PTickKey k0 _ rest _ => k = k0 \/ amem k rest = true
  | PTickAfterPolicy k0 _ _ rest _ => k = k0 \/ amem k rest = true
  | _ => False
  end.

(* the excuse the running cleanup gives: taken out of a due bucket, not visited yet, and expired *)
Definition QP (p : ppc) (now : N) : N -> time -> Prop := fun k t => pending p k /\ t_is_expired now t = true.

Definition EmInv (st : cstate) : Prop := all_good (QP (s_pc st) (s_now st)) (s_store st).

Lemma all_good_mono (Q Q' : N -> time -> Prop) s : all_good Q s -> (forall k t, Q k t -> Q' k t) -> all_good Q' s.
Proof. intros A I k e X. destruct (A k e X) as [Z|[L|Qk]]; [left; exact Z|right; left; exact L|right; right; apply I; exact Qk]. Qed.

Lemma all_good_em (Q : N -> time -> Prop) s em' :
  all_good Q s -> (forall b k, listed (st_em s) b k -> listed em' b k) -> all_good Q {| st_map := st_map s; st_em := em' |}.
Proof. intros A I k e X. apply (good_other Q s _ k e (A k e X)). intros b. apply I. Qed.

Lemma expired_mono now now' t : now <= now' -> t_is_expired now t = true -> t_is_expired now' t = true.
Proof. rewrite !is_expired_iff. lia. Qed.

Lemma due_is_expired now t : storage_bucket t <= cleanup_bucket now -> t_is_expired now t = true.
Proof. intros H%due_implies_elapsed. apply is_expired_iff. lia. Qed.

Lemma EmInv_wr st st' :
  EmInv st -> store_wr (fun _ => True) (s_store st) (s_store st') -> s_now st <= s_now st' ->
  (forall k0, pending (s_pc st) k0 -> pending (s_pc st') k0) -> EmInv st'.
Proof.
  intros E W N P. eapply all_good_mono; [eapply all_good_wr; [exact E|exact W]|].
  intros k0 t (Pk & X). split; [apply P, Pk|eapply expired_mono; eassumption].
Qed.

Lemma try_remove_cf0_gone s k s' prev : st_try_remove s k 0 = (s', prev) -> aget k (st_map s') = None.
Proof.
  unfold st_try_remove. destruct (aget k (st_map s)) as [e|] eqn:G; [|intros [= <- _]; exact G].
  unfold conflict_ok. cbn [N.eqb orb negb]. intros [= <- _]. apply aget_adel_same.
Qed.

Lemma good_cleanup Q s now em' m :
  all_good Q s -> (forall k t, ~ Q k t) -> em_cleanup (st_em s) now = (em', Some m) ->
  all_good (fun k t => amem k m = true /\ t_is_expired now t = true) {| st_map := st_map s; st_em := em' |}.
Proof.
  intros A NQ CL k e X. destruct (A k e X) as [Zr|[L|Qk]]; [left; exact Zr| |destruct (NQ _ _ Qk)].
  destruct (N.ltb_spec (cleanup_bucket now) (storage_bucket (e_exp e))) as [Hlt|Hge].
  - right; left. apply (cleanup_listed _ _ _ _ _ _ CL). auto.
  - right; right. destruct (cleanup_due _ _ _ _ _ _ CL L Hge) as (m0 & [= <-] & M). auto using due_is_expired.
Qed.

(* the cleanup is through with k: what is stored under it, if anything, is not an expired TTL entry *)
Lemma good_visited (X : time -> bool) s k (rest : amap N) :
  all_good (fun k' t => (k' = k \/ amem k' rest = true) /\ X t = true) s ->
  (forall t, st_expiration s k = Some t -> negb (t_is_zero t) && X t = false) ->
  all_good (fun k' t => amem k' rest = true /\ X t = true) s.
Proof.
  intros A NX k' e G. destruct (A k' e G) as [Zr|[L|([->|M] & Y)]]; [left; exact Zr|right; left; exact L| |right; right; auto].
  left. specialize (NX (e_exp e)). unfold st_expiration in NX. rewrite G, Y, andb_true_r in NX. apply negb_false_iff, NX, eq_refl.
Qed.

Lemma tick_rule_em c st h acc rest st' o :
  tick_rule c st h acc rest st' o ->
  all_good (fun k t => amem k rest = true /\ t_is_expired (s_now st) t = true) (s_store st) -> EmInv st'.
Proof.
  intros T A. unfold EmInv, QP. destruct T; sproj; cbn [pending]; (eapply all_good_mono; [exact A|]); intros k' t (X & Y).
  - discriminate X.
  - split; [|exact Y]. rewrite amem_adel, X, andb_true_r. destruct (N.eqb_spec k' k); [left; assumption|right; reflexivity].
Qed.

Theorem EmInv_step c st l st' o :
  EmInv st -> pc_cf0 (s_pc st) -> cstep c st l = StepOk st' o -> EmInv st'.
Proof.
  (* the case analysis of [step_cases], but with [tick_rule] left closed: [tick_rule_em] treats the
     cleanup's two continuations at once *)
  intros E Z H. apply cstep_rule in H.
  destruct H as [a op st' o _ R|a st' o R|h st' o R|h st' o R|dt|];
    [destruct R|destruct R|destruct R; try match goal with S : stop_taken st _ |- _ => destruct S end|destruct R| |].
  (* outside the cleanup no key is or becomes pending; when the cleanup has un-charged a key the same
     keys stay pending *)
  all: try solve [eapply EmInv_wr;
    [exact E
    |sproj; first [apply SwSame|eapply try_update_wr; [eassumption|exact I]|eapply try_remove_wr; eassumption
                  |apply try_insert_wr; exact I|apply write_wr]
    |sproj; first [apply N.le_refl|apply N.le_add_r]
    |intros k0; sproj; known; cbn [pending]; intros X; first [exact X|destruct X]]].
  all: unfold EmInv in E; revert E Z; known; cbn [pc_cf0]; intros E Z.
  - (* PrTickIdle *)
    destruct (cleanup_nothing_due _ _ _ ltac:(eassumption)) as (-> & _). unfold EmInv. sproj. known. exact E.
  - (* PrTickDue *)
    eapply tick_rule_em; [eassumption|]. eapply good_cleanup; [exact E|intros k0 t ([] & _)|eassumption].
  - (* PrClearStore *) intros k0 e0 X. discriminate X.
  - (* PrTickSkip *) eapply tick_rule_em; [eassumption|]. apply good_visited with (k := k); assumption.
  - (* PrTickRemoved: the key is gone (conflict hash 0) *)
    destruct Z as (-> & _). eapply tick_rule_em; [eassumption|]. apply good_visited with (k := k).
    + eapply all_good_wr with (P := fun _ => True); [exact E|eapply try_remove_wr; eassumption].
    + intros t SE. unfold st_expiration in SE. erewrite try_remove_cf0_gone in SE by eassumption. discriminate SE.
Qed.

Lemma EmInv_init c mc t now : EmInv (cinit c mc t now).
Proof. intros k e X. discriminate X. Qed.

Theorem reachable_EmInv c mc t now st : reach_cf c (cinit c mc t now) st -> EmInv st.
Proof.
  induction 1 as [|st l st' o R IH L S]; [apply EmInv_init|].
  destruct (reach_cf_inv _ _ _ _ _ R) as (_ & (_ & _ & Z & _)). eapply EmInv_step; eassumption.
Qed.

Lemma EmInv_listed st k e :
  EmInv st ->
  (forall k0 cf rest acc, s_pc st <> PTickKey k0 cf rest acc) ->
  (forall k0 cf cost rest acc, s_pc st <> PTickAfterPolicy k0 cf cost rest acc) ->
  aget k (st_map (s_store st)) = Some e -> t_is_zero (e_exp e) = false ->
  listed (st_em (s_store st)) (storage_bucket (e_exp e)) k.
Proof.
  intros E N1 N2 G Z. destruct (E k e G) as [Zr|[L|(P & _)]]; [congruence|exact L|].
  exfalso. destruct (s_pc st); cbn [pending] in P; try contradiction; [eapply N1|eapply N2]; reflexivity.
Qed.

(* C05: no resident TTL entry is ever forgotten — whenever the processor is not inside a cleanup it
   is listed under the bucket of its current deadline, so the tick of that second will find it *)
Theorem resident_ttl_entry_is_listed c mc t now st k e :
  reach_cf c (cinit c mc t now) st ->
  (forall k0 cf rest acc, s_pc st <> PTickKey k0 cf rest acc) ->
  (forall k0 cf cost rest acc, s_pc st <> PTickAfterPolicy k0 cf cost rest acc) ->
  aget k (st_map (s_store st)) = Some e -> t_is_zero (e_exp e) = false ->
  listed (st_em (s_store st)) (storage_bucket (e_exp e)) k.
Proof. intros R. apply EmInv_listed, (reachable_EmInv _ _ _ _ _ R). Qed.

(* what a cleanup at T establishes: nothing listed is due at T *)
Definition MinBucket (em : emap) (T : N) : Prop := forall b k, listed em b k -> cleanup_bucket T < b.

Lemma bucket_of_now_is_later now d T : T <= now -> cleanup_bucket T < storage_bucket {| t_created := now; t_d := d |}.
Proof.
  intros H. unfold cleanup_bucket, storage_bucket, t_unix. cbn [t_created t_d].
  assert (T / NS <= (now + d) / NS) by (apply N.div_le_mono; [unfold NS; lia|lia]). lia.
Qed.

Definition MB (st : cstate) (T : N) : Prop := MinBucket (st_em (s_store st)) T.

Lemma MinBucket_wr T s s' :
  MinBucket (st_em s) T -> store_wr (fun t => t_is_zero t = false -> cleanup_bucket T < storage_bucket t) s s' ->
  MinBucket (st_em s') T.
Proof.
  intros M W b' k' L. destruct W as [|k e v G|k e e' c G Pt|k e' c G Pt|k e G]; cbn [st_em] in L.
  - exact (M _ _ L).
  - exact (M _ _ L).
  - apply em_update_listed in L. destruct L as [(Z & -> & _)|(L & _)]; [exact (Pt Z)|exact (M _ _ L)].
  - apply em_insert_listed in L. destruct L as [(Z & -> & _)|L]; [exact (Pt Z)|exact (M _ _ L)].
  - apply em_remove_listed in L. exact (M _ _ (proj1 L)).
Qed.

(* an item admitted now whose deadline bucket was already due at T would be listed under a bucket the
   cleanup at T has been through; it is reclaimed by the next cleanup instead *)
Definition no_stale_admission (st : cstate) (T : N) : Prop :=
  forall k cf v exp cost vs, s_pc st = PNewAfterAdd k cf v exp cost vs true ->
  t_is_zero exp = false -> cleanup_bucket T < storage_bucket exp.

Theorem MB_step c st l st' o T :
  T <= s_now st -> MB st T -> no_stale_admission st T -> cstep c st l = StepOk st' o -> MB st' T.
Proof.
  intros HT M NS H. unfold MB in *. step_cases H; try exact M.
  all: try solve [eapply MinBucket_wr; [exact M|eapply try_remove_wr; eassumption]].
  all: try solve [intros b k0 L; eapply M, (cleanup_listed _ _ _ _ _ _ ltac:(eassumption)), L].
  - (* OpInsUpdate: the new deadline counts from now *)
    eapply MinBucket_wr; [exact M|eapply try_update_wr; [eassumption|]]. intros _. apply bucket_of_now_is_later, HT.
  - (* ClGetMutHit *) eapply MinBucket_wr; [exact M|apply write_wr].
  - (* PrAdmit *) eapply MinBucket_wr; [exact M|apply try_insert_wr]. eapply NS. eassumption.
  - (* PrClearStore *) intros b k0 (bk & A & _). discriminate A.
Qed.

(* the cleanup step leaves no bucket that is due at its own time *)
Theorem tick_establishes_MB c st h st' o :
  s_pc st = PIdle -> h_arm h = Some ArmTick -> proc_step c st h = StepOk st' o -> MB st' (s_now st).
Proof.
  intros PC HA H b k. apply proc_step_rule in H.
  destruct H; try congruence; [|match goal with T : tick_rule _ _ _ _ _ _ _ |- _ => destruct T end]; sproj;
    intros L; eapply (cleanup_listed _ _ _ _ _ _ ltac:(eassumption)), L.
Qed.

(* C05, reclamation: once a cleanup that ran at time T is over (the processor is out of it) — and
   as long as no item already due at T was admitted since — no resident entry has a deadline bucket
   that was due at T.  In particular an entry whose TTL had elapsed one bucket width (one second)
   before T is gone: removed from the store, un-charged, handed to on_evict. *)
Theorem after_cleanup_nothing_due_is_resident st T k e :
  EmInv st -> MB st T ->
  (forall k0 cf rest acc, s_pc st <> PTickKey k0 cf rest acc) ->
  (forall k0 cf cost rest acc, s_pc st <> PTickAfterPolicy k0 cf cost rest acc) ->
  aget k (st_map (s_store st)) = Some e -> t_is_zero (e_exp e) = false ->
  cleanup_bucket T < storage_bucket (e_exp e).
Proof. intros E M N1 N2 G Z. exact (M _ _ (EmInv_listed st k e E N1 N2 G Z)). Qed.

Corollary elapsed_entry_is_reclaimed st T k e :
  EmInv st -> MB st T ->
  (forall k0 cf rest acc, s_pc st <> PTickKey k0 cf rest acc) ->
  (forall k0 cf cost rest acc, s_pc st <> PTickAfterPolicy k0 cf cost rest acc) ->
  aget k (st_map (s_store st)) = Some e -> t_is_zero (e_exp e) = false ->
  t_created (e_exp e) + t_d (e_exp e) + NS <= T -> False.
Proof.
  intros E M N1 N2 G Z D. pose proof (after_cleanup_nothing_due_is_resident st T k e E M N1 N2 G Z) as X.
  pose proof (due_within_one_bucket T (e_exp e) D). lia.
Qed.
