(* CacheCloseAsync.v — C12, async flavour: close() never waits in the stop handshakes.  The stop
   channels of AsyncCache hold one message and only the one closer (OneCloser) sends into them, so
   when it reaches a send the channel is empty and the send completes at once: the states "stop
   offered, waiting for a partner" are unreachable. *)
From StrettoModel Require Import Cache CacheSteps CacheInv CacheClose CacheCloseLive.
Open Scope N_scope.

(* inside close(), before the stop message to the processor (early), resp. the policy worker (polearly), is sent *)
Definition early (k : ccont) : bool :=
  match k with KCloseAfterFlag | KClearBlock _ true | KCloseBeforeStop => true | _ => false end.

Definition polearly (k : ccont) : bool :=
  match k with
  | KCloseAfterFlag | KClearBlock _ true | KCloseBeforeStop | KCloseStopOffered | KCloseStopTaken | KCloseBeforePolicy
  | KPolCloseBeforeStop => true
  | _ => false
  end.

Lemma early_in_close k : (early k = true -> in_close k = true) /\ (polearly k = true -> in_close k = true).
Proof. destruct k; split; try discriminate; try reflexivity; destruct closing; first [reflexivity|discriminate]. Qed.

Lemma early_before c st l st' o b :
  cstep c st l = StepOk st' o ->
  (early (client_of st' b) = true -> early (client_of st b) = true \/ (s_closed st = false /\ l = LOp b OClose)) /\
  (polearly (client_of st' b) = true -> polearly (client_of st b) = true \/ (s_closed st = false /\ l = LOp b OClose)).
Proof.
  intros H. step_cases H; clients; split; auto;
    (destruct (N.eqb_spec b a) as [->|_]; [|auto]); known; cbn [early polearly]; first [discriminate|auto].
Qed.

Definition AsyncStop (st : cstate) : Prop :=
  (s_closed st = false -> s_stop_msgs st = 0 /\ s_pol_stop_msgs st = 0) /\
  (forall a, early (client_of st a) = true -> s_stop_msgs st = 0) /\
  (forall a, polearly (client_of st a) = true -> s_pol_stop_msgs st = 0).

Theorem AsyncStop_step c st l st' o :
  OneCloser st -> AsyncStop st -> cstep c st l = StepOk st' o -> AsyncStop st'.
Proof.
  intros (O1 & O2) (A1 & A2 & A3) H.
  (* a message comes into an empty channel only by the send of a closer, a below *)
  destruct (stop_msgs_zero c st l st' o H) as (Z1 & Z2).
  split; [|split].
  - (* the cache is open after the step, hence before it: but a is inside close() *)
    intros C'. assert (C : s_closed st = false).
    { destruct (s_closed st) eqn:C; [|reflexivity]. rewrite (proj1 (closed_is_final c st l st' o H) C) in C'. discriminate. }
    destruct (A1 C) as (M1 & M2). split.
    + destruct (Z1 M1) as [Z|(_ & a & _ & K & _)]; [exact Z|]. rewrite (O1 a) in C by (rewrite K; reflexivity). discriminate.
    + destruct (Z2 M2) as [Z|(_ & a & _ & K & _)]; [exact Z|]. rewrite (O1 a) in C by (rewrite K; reflexivity). discriminate.
  - (* b has yet to send: if it was inside close() before, a is b, and has sent; if it has just begun,
       the step is not a send *)
    intros b X. destruct (proj1 (early_before c st l st' o b H) X) as [E|(C & ->)].
    + destruct (Z1 (A2 b E)) as [Z|(_ & a & _ & K & K')]; [exact Z|].
      assert (a = b) by (apply O2; [rewrite K; reflexivity|exact (proj1 (early_in_close _) E)]). subst a.
      rewrite K' in X. discriminate X.
    + destruct (Z1 (proj1 (A1 C))) as [Z|(_ & a & L & _)]; [exact Z|discriminate L].
  - intros b X. destruct (proj2 (early_before c st l st' o b H) X) as [E|(C & ->)].
    + destruct (Z2 (A3 b E)) as [Z|(_ & a & _ & K & K')]; [exact Z|].
      assert (a = b) by (apply O2; [rewrite K; reflexivity|exact (proj2 (early_in_close _) E)]). subst a.
      rewrite K' in X. discriminate X.
    + destruct (Z2 (proj2 (A1 C))) as [Z|(_ & a & L & _)]; [exact Z|discriminate L].
Qed.

Definition NoOffer (st : cstate) : Prop :=
  forall a, client_of st a <> KCloseStopOffered /\ client_of st a <> KPolCloseStopOffered.

(* C12, async flavour: no closer ever waits in a stop handshake — its stop message is buffered at once *)
Theorem async_close_never_waits c mc t now st :
  c_async c = true -> reach c (cinit c mc t now) st -> NoOffer st.
Proof.
  intros AS R.
  assert (SC : stop_cap c = 1) by (unfold stop_cap; rewrite AS; reflexivity).
  assert (I : OneCloser st /\ AsyncStop st /\ NoOffer st); [|exact (proj2 (proj2 I))].
  apply (reach_ind_inv c (cinit c mc t now) (fun s => OneCloser s /\ AsyncStop s /\ NoOffer s)); [| |exact R].
  - split; [apply OneCloser_init|]. split.
    + split; [intros _; split; reflexivity|]. split; intros a X; discriminate X.
    + intros a. split; intros X; discriminate X.
  - intros s0 l s1 o (O0 & A0 & N0) S. split; [eapply OneCloser_step; eassumption|]. split; [eapply AsyncStop_step; eassumption|].
    destruct A0 as (_ & A2 & A3). intros a. split; intros X.
    (* a new offer is made by a closer that has yet to send and finds the channel full (F): but the
       channel holds one message and is empty *)
    + destruct (proj1 (offer_new c s0 l s1 o a S) X) as [Y|(K & F & _)]; [exact (proj1 (N0 a) Y)|].
      rewrite SC, (A2 a) in F by (rewrite K; reflexivity). lia.
    + destruct (proj2 (offer_new c s0 l s1 o a S) X) as [Y|(K & F & _)]; [exact (proj2 (N0 a) Y)|].
      rewrite SC, (A3 a) in F by (rewrite K; reflexivity). lia.
Qed.
