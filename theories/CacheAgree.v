(* CacheAgree.v — property C06: at quiescence a key is resident in the store exactly when the policy
   charges it, under every schedule.  [Agree] is the inductive invariant: it says which program points
   of the processor, and which Delete items on their way to it, excuse a key that is resident but not
   charged, or charged but not resident.

   Collision-free histories only: a remove (or a Delete item) whose conflict hash differs from the
   stored one leaves the entry in the store while the policy un-charges the key, for good
   (Properties/C06.v, C06_collision_refuted).  So the theorems speak of [reach_cf], the runs in which
   every conflict hash a client passes is 0 ([label_cf0]); [ZeroConf] is the invariant that then every
   conflict hash in flight is 0, so that every conflict check passes.

   [StoreND] (the store lists an index once) turns equal membership into len() = number of charged
   entries. *)
From StrettoModel Require Import BaseProofs PolicyProofs StoreProofs Cache CacheSteps CacheProofs CacheInv.

Open Scope N_scope.

Lemma amem_true_iff {V} k (m : amap V) : amem k m = true <-> exists v, aget k m = Some v.
Proof.
  unfold amem. destruct (aget k m) as [v|]; split; [intros _; exists v; reflexivity|reflexivity|discriminate|intros [v H]; discriminate H].
Qed.

Definition inS (st : cstate) (k : N) : bool := amem k (st_map (s_store st)).
Definition inC (st : cstate) (k : N) : bool := amem k (sl_kc (s_slfu st)).
Definition vkeys (vs : list pair) : list key := map fst vs.

Definition zero_vals (m : amap N) : Prop := forall k c, In (k, c) m -> c = 0.
Definition em_zero (em : emap) : Prop := forall b m, In (b, m) em -> zero_vals m.

Definition item_cf0 (it : item) : Prop :=
  match it with INew _ cf _ _ _ => cf = 0 | IDelete _ cf => cf = 0 | _ => True end.

Definition cont_cf0 (k : ccont) : Prop :=
  match k with KInsSend it _ => item_cf0 it | KRemSend _ cf => cf = 0 | _ => True end.

Definition pc_cf0 (p : ppc) : Prop :=
  match p with
  | PNewAfterAdd _ cf _ _ _ _ _ => cf = 0
  | PDelAfterPolicy _ cf => cf = 0
  | PTickKey _ cf rest _ => cf = 0 /\ zero_vals rest
  | PTickAfterPolicy _ cf _ rest _ => cf = 0 /\ zero_vals rest
  | _ => True
  end.

Definition ZeroConf (st : cstate) : Prop :=
  Forall item_cf0 (s_buf st) /\ (forall a, cont_cf0 (client_of st a)) /\ pc_cf0 (s_pc st) /\
  em_zero (st_em (s_store st)).

(* collision-free labels: every conflict hash a client passes is 0 (e.g. TransparentKeyBuilder) *)
Definition label_cf0 (l : label) : Prop :=
  match l with
  | LOp _ (OInsert _ cf _ _ _ _) => cf = 0
  | LOp _ (OGet _ cf) => cf = 0
  | LOp _ (OGetMutWrite _ cf _) => cf = 0
  | LOp _ (OGetTtl _ cf) => cf = 0
  | LOp _ (ORemove _ cf) => cf = 0
  | _ => True
  end.

Lemma em_put_zero em b k : em_zero em -> em_zero (em_put em b k 0).
Proof.
  unfold em_zero, em_put. intros Z. destruct (aget b em) as [bucket|] eqn:E; apply all_vals_aset; try exact Z.
  - unfold zero_vals. apply all_vals_aset; [exact (Z b bucket (aget_In_pair _ _ _ E))|reflexivity].
  - intros k' c' [[= _ <-]|[]]. reflexivity.
Qed.

Lemma em_unlist_zero em b k : em_zero em -> em_zero (em_unlist em b k).
Proof.
  unfold em_zero, em_unlist. intros Z. destruct (aget b em) as [bucket|] eqn:E; [|exact Z].
  apply all_vals_aset; [exact Z|]. intros k' c' H%in_adel_in. exact (Z b bucket (aget_In_pair _ _ _ E) k' c' H).
Qed.

Lemma em_update_zero em k old new : em_zero em -> em_zero (em_update em k 0 old new).
Proof.
  intros Z. unfold em_update. destruct (t_is_zero old && t_is_zero new); [assumption|].
  destruct (t_is_zero old), (t_is_zero new); auto using em_put_zero, em_unlist_zero.
Qed.

Lemma em_insert_zero em k t : em_zero em -> em_zero (em_insert em k 0 t).
Proof. intros Z. unfold em_insert. destruct (t_is_zero t); auto using em_put_zero. Qed.

Lemma merge_listings_zero due : em_zero due -> zero_vals (merge_listings due).
Proof.
  intros Z. unfold merge_listings. apply fold_left_inv; [|intros k c []].
  intros acc [b m] Hb Ha. rewrite asort_In in Hb. apply fold_left_inv; [|exact Ha].
  intros acc' [k c] Hk Ha'. unfold zero_vals. apply all_vals_aset; [exact Ha'|exact (Z b m Hb k c Hk)].
Qed.

Lemma em_cleanup_zero em now em' due : em_zero em -> em_cleanup em now = (em', due) ->
  em_zero em' /\ (forall m, due = Some m -> zero_vals m).
Proof.
  intros Z. unfold em_cleanup. destruct (em_due em now) eqn:D; intros [= <- <-].
  - split; [exact Z|discriminate].
  - split; [intros b m Hin%incl_filter; exact (Z b m Hin)|]. intros m [= <-]. apply merge_listings_zero.
    rewrite <- D. intros b m Hin%incl_filter. exact (Z b m Hin).
Qed.

Lemma try_update_em_zero vld s k v c t s' r :
  c = 0 -> em_zero (st_em s) -> st_try_update vld s k v c t = (s', r) -> em_zero (st_em s').
Proof.
  intros -> Z. unfold st_try_update.
  destruct (aget k (st_map s)) as [e|]; [do 2 (destruct (negb _); [intros [= <- _]; exact Z|])|]; intros [= <- _]; [|exact Z].
  apply em_update_zero, Z.
Qed.

Lemma try_insert_em_zero vld s k v c t : c = 0 -> em_zero (st_em s) -> em_zero (st_em (st_try_insert vld s k v c t)).
Proof.
  intros -> Z. unfold st_try_insert.
  destruct (aget k (st_map s)) as [e|]; [do 2 (destruct (negb _); [exact Z|]); apply em_update_zero, Z|apply em_insert_zero, Z].
Qed.

Lemma try_remove_em_zero s k c s' prev :
  em_zero (st_em s) -> st_try_remove s k c = (s', prev) -> em_zero (st_em s').
Proof.
  intros Z. unfold st_try_remove.
  destruct (aget k (st_map s)) as [e|]; [destruct (negb _); [intros [= <- _]; exact Z|]|]; intros [= <- _]; [|exact Z].
  cbn [st_em]. destruct (t_is_zero (e_exp e)); [exact Z|apply em_unlist_zero, Z].
Qed.

Lemma write_em s k v : st_em (st_write s k v) = st_em s.
Proof. unfold st_write. destruct (aget k (st_map s)); reflexivity. Qed.

Lemma zero_vals_next rest k cf : zero_vals rest -> aget k rest = Some cf -> cf = 0 /\ zero_vals (adel k rest).
Proof.
  intros Z E. split; [eapply Z, aget_In_pair, E|].
  intros k' c' H. apply in_adel_in in H. eapply Z, H.
Qed.

Theorem ZeroConf_step c st l st' o :
  ZeroConf st -> label_cf0 l -> cstep c st l = StepOk st' o -> ZeroConf st'.
Proof.
  intros (ZB & ZK & ZP & ZE) L H. step_cases H; cbn [label_cf0] in L.
  all: try match goal with E : s_buf _ = _ :: _ |- _ =>
             rewrite E in ZB; apply Forall_cons_iff in ZB; destruct ZB as (ZI & ZB) end.
  all: try match goal with E : s_pc _ = _ |- _ => rewrite E in ZP; cbn [pc_cf0] in ZP end.
  all: try match goal with E : client_of _ ?a = _ |- _ => pose proof (ZK a) as ZA; rewrite E in ZA end.
  all: try match goal with E : em_cleanup _ _ = _ |- _ => destruct (em_cleanup_zero _ _ _ _ ZE E) as (ZE' & ZD) end.
  all: unfold ZeroConf; sproj; known; (split; [|split; [|split]]).
  all: first
    [ assumption
    | solve [constructor]
    | (* a client moves on *)
      apply (client_of_set_all cont_cf0); [exact ZK|]; cbn; solve [auto]
    | (* a send *)
      apply Forall_app; split; [exact ZB|repeat constructor; exact ZA]
    | (* PrTickSkip, PrTickRemoved, PrTickDue *)
      eapply zero_vals_next; [|eassumption]; solve [auto | apply ZP]
    | (* OpInsUpdate *) eapply try_update_em_zero; eassumption
    | (* OpRemove and the processor's removals *) eapply try_remove_em_zero; eassumption
    | (* ClGetMutHit *) rewrite write_em; exact ZE
    | (* PrAdmit *) apply try_insert_em_zero; assumption
    | (* PrClearStore *) intros b m [] ].
Qed.

Definition pc_victims (p : ppc) : list key :=
  match p with
  | PNewAfterAdd _ _ _ _ _ vs _ => vkeys vs
  | PNewAfterStore vs => vkeys vs
  | PNewVictim v rest => vkeys (v :: rest)
  | _ => []
  end.

(* why a key may be resident without being charged: the processor is about to remove it *)
Definition ExcS (st : cstate) (k : N) : Prop :=
  In k (pc_victims (s_pc st)) \/
  (exists cf, s_pc st = PDelAfterPolicy k cf) \/
  (exists cf cost rest acc, s_pc st = PTickAfterPolicy k cf cost rest acc) \/
  (exists sig, s_pc st = PClearAfterPolicy sig) \/
  s_pc st = PExited.

(* why a key may be charged without being resident: its store insert is next, or a Delete for it is
   on its way, or the policy is about to be cleared *)
Definition ExcC (st : cstate) (k : N) : Prop :=
  (exists cf v exp cost vs, s_pc st = PNewAfterAdd k cf v exp cost vs true) \/
  (exists cf, In (IDelete k cf) (s_buf st)) \/
  (exists a cf, client_of st a = KRemSend k cf) \/
  (exists sig, s_pc st = PClearAfterDrain sig) \/
  s_pc st = PExited.

(* what the program point promises of the keys in the processor's hands: victims and keys being
   deleted are un-charged already, a key just admitted is charged and not resident yet *)
Definition PcOk (st : cstate) : Prop :=
  match s_pc st with
  | PNewAfterAdd k _ _ _ _ vs added =>
      (added = true -> inC st k = true /\ inS st k = false) /\ (forall x, In x (vkeys vs) -> inC st x = false)
  | PNewAfterStore vs => forall x, In x (vkeys vs) -> inC st x = false
  | PNewVictim v rest => forall x, In x (vkeys (v :: rest)) -> inC st x = false
  | PDelAfterPolicy k _ => inC st k = false
  | PTickAfterPolicy k _ _ _ _ => inC st k = false
  | PClearAfterPolicy _ => forall x, inC st x = false
  | PClearAfterStore _ => (forall x, inC st x = false) /\ (forall x, inS st x = false)
  | _ => True
  end.

Definition Agree (st : cstate) : Prop :=
  (forall k, inS st k = true -> inC st k = false -> ExcS st k) /\
  (forall k, inC st k = true -> inS st k = false -> ExcC st k) /\
  PcOk st.

Lemma Agree_admit_absent st : Agree st ->
  forall k cf v exp cost vs, s_pc st = PNewAfterAdd k cf v exp cost vs true -> aget k (st_map (s_store st)) = None.
Proof.
  intros (_ & _ & PK) k cf v exp cost vs PC. unfold PcOk in PK. rewrite PC in PK.
  destruct (proj1 PK eq_refl) as (_ & NS). unfold inS, amem in NS.
  destruct (aget k (st_map (s_store st))); [discriminate NS|reflexivity].
Qed.

Lemma try_update_keys vld s k v c t s' r k' :
  st_try_update vld s k v c t = (s', r) -> amem k' (st_map s') = amem k' (st_map s).
Proof.
  unfold st_try_update. destruct (aget k (st_map s)) as [e|] eqn:E; [|intros [= <- _]; reflexivity].
  do 2 (destruct (negb _); [intros [= <- _]; reflexivity|]). intros [= <- _]. eapply amem_aset_in, E.
Qed.

(* with conflict hash 0 the conflict check passes whatever is stored: a remove always removes and an
   insert always leaves the key resident *)
Lemma try_remove_keys s k s' prev k' :
  st_try_remove s k 0 = (s', prev) -> amem k' (st_map s') = negb (N.eqb k' k) && amem k' (st_map s).
Proof.
  unfold st_try_remove. destruct (aget k (st_map s)) as [e|] eqn:E.
  - intros [= <- _]. apply amem_adel.
  - intros [= <- _]. destruct (N.eqb_spec k' k) as [->|]; [|reflexivity]. unfold amem. rewrite E. reflexivity.
Qed.

Lemma try_insert_keys vld s k v t k' :
  amem k' (st_map (st_try_insert vld s k v 0 t)) = N.eqb k' k || amem k' (st_map s).
Proof.
  unfold st_try_insert. destruct (aget k (st_map s)) as [e|] eqn:E; [|apply amem_aset].
  cbn [conflict_ok N.eqb negb orb]. rewrite <- (amem_aset k' k e), (amem_aset_in k e e _ k' E).
  destruct (negb _); [reflexivity|eapply amem_aset_in, E].
Qed.

Lemma write_keys s k v k' : amem k' (st_map (st_write s k v)) = amem k' (st_map s).
Proof. unfold st_write. destruct (aget k (st_map s)) eqn:E; [eapply amem_aset_in, E|reflexivity]. Qed.

Lemma sl_update_keys s k c k' : amem k' (sl_kc (fst (fst (sl_update s k c)))) = amem k' (sl_kc s).
Proof. unfold sl_update. destruct (aget k (sl_kc s)) eqn:E; [eapply amem_aset_in, E|reflexivity]. Qed.

Lemma pol_remove_keys s k k' : amem k' (sl_kc (fst (pol_remove s k))) = negb (N.eqb k' k) && amem k' (sl_kc s).
Proof. unfold amem. rewrite pol_remove_fst, sl_remove_get. destruct (N.eqb k' k); reflexivity. Qed.

Definition victims_of (v : option (list pair)) : list pair := match v with Some l => l | None => [] end.

(* k is not charged during the loop, so it is never sampled and never a victim *)
Lemma evict_loop_members est ih k cost oracle s s' v a l m :
  (forall x, est x < I64MAX)%Z -> amem k (sl_kc s) = false ->
  evict_loop est ih k cost oracle s [] [] [] [] = AddDone s' v a l m ->
  mem_N k (vkeys (victims_of v)) = false /\
  forall x, amem x (sl_kc s') = if x =? k then a else amem x (sl_kc s) && negb (mem_N x (vkeys (victims_of v))).
Proof.
  intros Hest Hk H.
  set (I := fun s1 (sample vs : list pair) (_ : list iter_log) (_ : list mevent) =>
     (forall p, In p sample -> fst p <> k) /\ mem_N k (vkeys vs) = false /\
     forall x, amem x (sl_kc s1) = amem x (sl_kc s) && negb (mem_N x (vkeys vs))).
  assert (Init : I s [] [] [] []) by (repeat split; [intros p []|intros x; symmetry; apply andb_true_r]).
  apply (evict_loop_rule est ih k cost I) with (oracle := oracle) in Init.
  - destruct Init as (s1 & ? & vs & ? & ? & (_ & Hv & Hx) & X). rewrite H in X.
    inversion X; subst; (split; [exact Hv|]); intros y; cbn [sl_increment sl_kc victims_of];
      rewrite ?amem_aset, Hx; destruct (N.eqb_spec y k) as [->|]; rewrite ?Hk; reflexivity.
  - intros s1 sample vs ? ? e (Hs & Hv & Hx) (_ & (_ & FM) & LF) _ Hne.
    (* the refilled sample holds old elements and current charges, and k is neither *)
    assert (Hsmp : forall p, In p (il_sample e) -> fst p <> k).
    { intros p [Hp|Hp%In_amem]%(legal_fill_elems _ _ _ _ LF); [exact (Hs p Hp)|].
      rewrite Hx in Hp. intros E. rewrite E, Hk in Hp. discriminate Hp. }
    (* the victim is an element of the sample *)
    pose proof (find_min0_in est _ _ _ _ _ Hne Hest FM) as Hn%Hsmp%N.eqb_neq. cbn [fst] in Hn.
    split; [intros p Hp%swap_remove_In; auto|].
    assert (Evs : vkeys (vs ++ [victim_of e]) = vkeys vs ++ [il_min_key e]) by apply map_app. rewrite Evs. split.
    + rewrite mem_N_app, Hv. cbn [mem_N orb]. rewrite N.eqb_sym, Hn. reflexivity.
    + intros x. rewrite pol_remove_keys, Hx, mem_N_app. cbn [mem_N].
      destruct (x =? il_min_key e), (amem x _), (mem_N x _); reflexivity.
Qed.

Lemma pol_add_members est oracle s k cost s' v a l m :
  (forall x, est x < I64MAX)%Z -> pol_add est oracle s k cost = AddDone s' v a l m ->
  (a = true -> amem k (sl_kc s) = false) /\ mem_N k (vkeys (victims_of v)) = false /\
  forall x, amem x (sl_kc s') = if x =? k then a || amem k (sl_kc s) else amem x (sl_kc s) && negb (mem_N x (vkeys (victims_of v))).
Proof.
  intros Hest.
  assert (Hk : amem k (sl_kc s) = match aget k (sl_kc s) with Some _ => true | None => false end) by reflexivity.
  destruct (pol_addP est oracle s k cost) as [_|p _ E|_ E _|_ E _]; try rewrite E in Hk.
  (* AddLoop (the fourth case): the eviction loop; in AddOversize, AddUpdate, AddRoom nothing is evicted *)
  4: { intros H. destruct (evict_loop_members _ _ _ _ _ _ _ _ _ _ _ Hest Hk H) as (Hv & Hx).
       rewrite Hk, orb_false_r. auto. }
  all: intros [= <- <- <- _ _]; (split; [first [discriminate|intros _; exact Hk]|]); (split; [reflexivity|]); intros x;
    cbn [sl_kc sl_increment victims_of vkeys map mem_N negb]; rewrite ?amem_aset, andb_true_r;
    destruct (N.eqb_spec x k) as [->|]; cbn [orb]; rewrite ?Hk; reflexivity.
Qed.

(* [Agree] speaks of every key, but a rule changes residency or charge of one key at most and names the
   program points before and after.  So the invariant is put as a condition on one key ([Agree_at]);
   that a rule keeps it is then a finite check ([agree_at_step]). *)

Definition pending_del (st : cstate) (k : N) : Prop :=
  (exists cf, In (IDelete k cf) (s_buf st)) \/ (exists a cf, client_of st a = KRemSend k cf).

(* [ExcS], [ExcC] (without the pending Deletes) and [PcOk] as truth tables: what they say of key k
   with the processor at p; S, C tell whether k is resident, charged *)
Definition excS_at (p : ppc) (k : N) : bool :=
  match p with
  | PDelAfterPolicy k' _ | PTickAfterPolicy k' _ _ _ _ => k =? k'
  | PClearAfterPolicy _ | PExited => true
  | _ => mem_N k (pc_victims p)
  end.

Definition excC_at (p : ppc) (k : N) : bool :=
  match p with
  | PNewAfterAdd k' _ _ _ _ _ added => (k =? k') && added
  | PClearAfterDrain _ | PExited => true
  | _ => false
  end.

Definition pcok_at (p : ppc) (k : N) (S C : bool) : bool :=
  match p with
  | PNewAfterAdd k' _ _ _ _ vs added =>
      (negb ((k =? k') && added) || C && negb S) && (negb (mem_N k (vkeys vs)) || negb C)
  | PNewAfterStore _ | PNewVictim _ _ => negb (mem_N k (pc_victims p)) || negb C
  | PDelAfterPolicy k' _ | PTickAfterPolicy k' _ _ _ _ => negb (k =? k') || negb C
  | PClearAfterPolicy _ => negb C
  | PClearAfterStore _ => negb C && negb S
  | _ => true
  end.

(* what holds of k outright, and when only a pending Delete excuses its charge *)
Definition ok_at (p : ppc) (k : N) (S C : bool) : bool := implb (S && negb C) (excS_at p k) && pcok_at p k S C.
Definition needs_del (p : ppc) (k : N) (S C : bool) : bool := negb (excC_at p k) && (C && negb S).

Definition agree_at (p : ppc) (k : N) (S C : bool) (D : Prop) : Prop :=
  Is_true (ok_at p k S C) /\ (Is_true (needs_del p k S C) -> D).

Lemma ExcS_at st k : ExcS st k <-> Is_true (excS_at (s_pc st) k).
Proof.
  unfold ExcS. split.
  - intros [X|[(cf & X)|[(cf & co & r & a & X)|[(sig & X)|X]]]];
      try (rewrite X; cbn [excS_at]; rewrite ?N.eqb_refl; exact I).
    destruct (s_pc st); cbn [pc_victims In] in X; try contradiction; apply Is_true_eq_left, mem_N_In, X.
  - destruct (s_pc st); cbn [excS_at pc_victims mem_N]; intros X; try contradiction;
      try (apply Is_true_eq_true in X; first [apply mem_N_In in X|apply N.eqb_eq in X; subst k]); eauto 9.
Qed.

Lemma ExcC_at st k : ExcC st k <-> Is_true (excC_at (s_pc st) k) \/ pending_del st k.
Proof.
  unfold ExcC, pending_del. split.
  - intros [(cf & v & e & co & vs & X)|[X|[X|[(sig & X)|X]]]]; auto;
      left; rewrite X; cbn [excC_at]; rewrite ?N.eqb_refl; exact I.
  - intros [X|[X|X]]; auto. destruct (s_pc st); cbn [excC_at] in X; try contradiction; eauto 6.
    apply Is_true_eq_true, andb_true_iff in X. destruct X as (X & ->). apply N.eqb_eq in X. subst k. eauto 9.
Qed.

Lemma PcOk_at st : PcOk st <-> forall k, pcok_at (s_pc st) k (inS st k) (inC st k) = true.
Proof.
  unfold PcOk. destruct (s_pc st); cbn [pcok_at pc_victims]; (split; [intros H x|intros H]); try reflexivity; try exact I.
  (* per program point and direction: the row constrains the victims, the one key of the point, or every key *)
  all: try solve [destruct (mem_N x _) eqn:M; [apply mem_N_In in M; rewrite (H x M)|]; reflexivity].
  all: try solve [destruct (N.eqb_spec x k) as [->|]; [rewrite H|]; reflexivity].
  all: try solve [rewrite ?(proj1 H), ?(proj2 H), ?H; reflexivity].
  all: try solve [intros x Hx; specialize (H x); apply mem_N_In in Hx; rewrite Hx in H; destruct (inC st x); [discriminate H|reflexivity]].
  all: try solve [specialize (H k); rewrite N.eqb_refl in H; destruct (inC st k); [discriminate H|reflexivity]].
  all: try solve [repeat split; intros x; specialize (H x); destruct (inC st x), (inS st x); try discriminate H; reflexivity].
  (* PNewAfterAdd: two rows, the key being added and the victims *)
  - destruct H as (H1 & H2). apply andb_true_iff. split.
    + destruct (N.eqb_spec x k) as [->|]; [destruct added; [destruct (H1 eq_refl) as (-> & ->)|]|]; reflexivity.
    + destruct (mem_N x _) eqn:M; [apply mem_N_In in M; rewrite (H2 x M)|]; reflexivity.
  - split.
    + intros ->. specialize (H k). rewrite N.eqb_refl in H. destruct (inC st k), (inS st k); try discriminate H; auto.
    + intros x Hx. specialize (H x). apply mem_N_In in Hx. rewrite Hx in H.
      destruct (inC st x); [rewrite andb_false_r in H; discriminate H|reflexivity].
Qed.

Lemma Agree_at st : Agree st <-> forall k, agree_at (s_pc st) k (inS st k) (inC st k) (pending_del st k).
Proof.
  unfold Agree, agree_at, ok_at, needs_del. rewrite PcOk_at. split.
  - intros (A1 & A2 & P) k. specialize (P k). specialize (A1 k). specialize (A2 k).
    rewrite ExcS_at in A1. rewrite ExcC_at in A2.
    destruct (inS st k), (inC st k); cbn [andb negb implb] in *; rewrite P, ?andb_true_r, ?andb_false_r; (split; [try exact I|try (intros [])]).
    + exact (A1 eq_refl eq_refl).
    + destruct (A2 eq_refl eq_refl) as [X|X]; [destruct (excC_at _ _); [intros []|destruct X]|intros _; exact X].
  - intros H. split; [|split]; intros k; destruct (H k) as (H1 & H2); apply andb_prop_elim in H1; destruct H1 as (H1 & P).
    + intros ES EC. rewrite ES, EC in H1. apply ExcS_at, H1.
    + intros EC ES. rewrite ES, EC in H2. apply ExcC_at. destruct (excC_at _ _); [left; exact I|right; exact (H2 I)].
    + apply Is_true_eq_true, P.
Qed.

Lemma agree_at_exited p k S C D : p = PExited -> agree_at p k S C D.
Proof. intros ->. destruct S, C; (split; [exact I|intros []]). Qed.

Lemma agree_at_pending p k S C (D D' : Prop) : agree_at p k S C D -> D' -> agree_at p k false C D'.
Proof.
  intros (O & _) HD. split; [|intros _; exact HD]. apply andb_prop_elim in O. destruct O as (_ & P). revert P.
  destruct p, S, C; cbn; auto. destruct (negb _), (negb _); cbn; auto.
Qed.

Lemma agree_at_step p p' k S C S' C' (D D' : Prop) :
  agree_at p k S C D -> (Is_true (needs_del p' k S' C') -> D -> D') ->
  Is_true (implb (ok_at p k S C) (ok_at p' k S' C' && implb (needs_del p' k S' C') (needs_del p k S C))) ->
  agree_at p' k S' C' D'.
Proof.
  unfold agree_at. intros (O & N) HD B. rewrite (Is_true_eq_true _ O) in B. apply andb_prop_elim in B.
  destruct B as (B1 & B2). split; [exact B1|]. intros N'. apply (HD N'), N.
  destruct (needs_del p' k S' C'); [exact B2|destruct N'].
Qed.

Lemma step_same o n : Is_true (implb o (o && implb n n)).
Proof. destruct o, n; exact I. Qed.

(* unfold the tables at the two program points and split on every comparison, membership test and
   residency or charge bit; each case is a closed boolean *)
Ltac rows :=
  unfold ok_at, needs_del; cbn [excS_at excC_at pcok_at pc_victims vkeys map fst mem_N];
  repeat match goal with
         | |- context [N.eqb ?a ?b] => destruct (N.eqb a b)
         | |- context [mem_N ?a ?l] => destruct (mem_N a l)
         | |- context [amem ?a ?m] => destruct (amem a m)
         end;
  exact I.

Lemma pending_del_client st st1 a K k :
  s_clients st1 = s_clients st -> incl (s_buf st) (s_buf st1) ->
  (forall cf, client_of st a = KRemSend k cf -> In (IDelete k cf) (s_buf st1)) ->
  pending_del st k -> pending_del (set_client st1 a K) k.
Proof.
  intros EC IB KA [(cf & X)|(b & cf & X)]; [left; eauto|].
  destruct (N.eq_dec b a) as [->|NE]; [left; eauto|]. right. exists b, cf.
  rewrite client_of_set. destruct (N.eqb_spec b a); [contradiction|]. unfold client_of. rewrite EC. exact X.
Qed.

Lemma pending_del_pop st st1 it k :
  s_buf st = it :: s_buf st1 -> s_clients st1 = s_clients st -> (forall cf, it <> IDelete k cf) ->
  pending_del st k -> pending_del st1 k.
Proof.
  intros EB EC NI [(cf & X)|(b & cf & X)].
  - rewrite EB in X. destruct X as [X|X]; [destruct (NI cf X)|left; eauto].
  - right. exists b, cf. unfold client_of. rewrite EC. exact X.
Qed.

(* the conclusion lists the ways [ExcC] lets a Delete excuse a charge; the first is the case *)
Lemma client_same_other st st1 a k :
  s_clients st1 = s_clients st -> client_of st a = KIdle \/ (forall kk cf, client_of st a <> KRemSend kk cf) ->
  forall kk b cf, client_of st b = KRemSend kk cf ->
  (exists a' cf', client_of (set_client st1 a k) a' = KRemSend kk cf') \/
  (exists cf', In (IDelete kk cf') (s_buf (set_client st1 a k))) \/ s_pc (set_client st1 a k) = PExited.
Proof.
  intros Hc Ha kk b cf E. left. exists b, cf. rewrite client_of_set.
  destruct (N.eqb_spec b a) as [->|Hne].
  - destruct Ha as [Ha|Ha]; [rewrite Ha in E; discriminate|destruct (Ha kk cf E)].
  - unfold client_of in *. rewrite Hc. assumption.
Qed.

(* C06: every step of a collision-free history keeps [Agree] *)
Theorem Agree_step c st l st' o :
  Agree st -> ZeroConf st -> label_cf0 l ->
  cstep c st l = StepOk st' o -> Agree st'.
Proof.
  intros AG (_ & _ & ZP & _) L H. rewrite Agree_at in AG |- *. unfold inS, inC in AG.
  step_cases H; cbn [label_cf0] in L; try exact AG; intros x.
  all: try (apply agree_at_exited; first [reflexivity|assumption]).
  (* the conflict hash kept in the program point is 0 *)
  all: try match goal with E : s_pc _ = _ |- _ => rewrite E in ZP; cbn [pc_cf0] in ZP end.
  all: try (destruct ZP as (ZP & _)); try subst cf.
  all: try match goal with E : st_try_remove _ _ _ = _ |- _ => apply try_remove_keys with (k' := x) in E end.
  all: try match goal with E : st_try_update _ _ _ _ _ _ = _ |- _ => apply try_update_keys with (k' := x) in E end.
  all: unfold inS, inC; sproj;
    try match goal with
        | E : amem _ (st_map _) = _ |- _ => rewrite E
        | |- context [st_write _ _ _] => rewrite write_keys
        | |- context [st_try_insert _ _ _ _ _ _] => rewrite try_insert_keys
        | |- context [sl_update _ _ _] => rewrite sl_update_keys
        | |- context [pol_remove _ _] => rewrite pol_remove_keys
        end.
  (* most rules keep the pending Deletes pending: a client moves on (and may hand its Delete to the
     buffer), the processor takes another item, or neither changes.  The row of x is as before or
     checked by [rows], which reads no hypothesis, so they are cleared first *)
  all: try solve [eapply agree_at_step;
    [ exact (AG x)
    | intros _; first [ exact (fun D => D)
            | apply pending_del_client;
              [reflexivity|sproj; first [apply incl_refl|apply incl_appl, incl_refl]
              |known; intros ? E; first [discriminate E|injection E as <- <-; apply in_or_app; right; left; reflexivity]]
            | eapply pending_del_pop; [eassumption|reflexivity|discriminate] ]
    | first [apply step_same | known; cbn [sl_clear sl_kc st_empty st_map amem aget]; clear - x; rows] ] ].
  - (* OpRemove: k leaves the store; the Delete in the client's hands excuses its charge *)
    destruct (N.eqb_spec x k) as [E|NE]; cbn [negb andb].
    + subst x. eapply agree_at_pending; [exact (AG k)|]. right. exists a, 0. rewrite client_of_set, N.eqb_refl. reflexivity.
    + eapply agree_at_step; [exact (AG x)|intros _; apply pending_del_client; [reflexivity|apply incl_refl|known; discriminate]|apply step_same].
  - (* PrNew: the policy charges k if it admits it, and names the keys it uncharged as victims *)
    edestruct pol_add_members as (M1 & M2 & M3); [apply est_of_small|eassumption|]. unfold victims_of in *.
    eapply agree_at_step; [exact (AG x)|intros _; eapply pending_del_pop; [eassumption|reflexivity|discriminate]|].
    known. rewrite M3. unfold ok_at, needs_del. cbn [excS_at excC_at pcok_at pc_victims mem_N].
    destruct (N.eqb_spec x k) as [E|_]; [subst x; rewrite M2; destruct added; [rewrite (M1 eq_refl)|]|]; rows.
  - (* PrDelete: k is uncharged at once and PDelAfterPolicy excuses its residency *)
    eapply agree_at_step; [exact (AG x)| |known; rows].
    destruct (N.eqb_spec x k) as [E|NE]; [intros []|intros _].
    eapply pending_del_pop; [eassumption|reflexivity|intros ? [= E]; exact (NE (eq_sym E))].
  - (* PrClear: the pending Deletes go with the buffer; PClearAfterDrain excuses every charge *)
    eapply agree_at_step; [exact (AG x)|intros []|known; rows].
Qed.

Definition StoreND (st : cstate) : Prop := NoDup (akeys (st_map (s_store st))).

Lemma nodup_wr P s s' : NoDup (akeys (st_map s)) -> store_wr P s s' -> NoDup (akeys (st_map s')).
Proof. intros ND [| | | |]; cbn [st_map]; auto using nodup_aset, nodup_adel. Qed.

Theorem StoreND_step c st l st' o : StoreND st -> cstep c st l = StepOk st' o -> StoreND st'.
Proof.
  unfold StoreND. intros ND H. step_cases H; try assumption.
  all: first [apply NoDup_nil | eapply nodup_wr with (P := fun _ => True); [exact ND|]].
  all: first [eapply try_update_wr; [eassumption|exact I] | eapply try_remove_wr; eassumption
             | apply try_insert_wr; exact I | apply write_wr].
Qed.

Lemma reachable_StoreND c mc t now st : reach c (cinit c mc t now) st -> StoreND st.
Proof.
  apply (reach_ind_inv c (cinit c mc t now) StoreND); [constructor|exact (StoreND_step c)].
Qed.

Definition quiescent (st : cstate) : Prop :=
  s_buf st = [] /\ s_pc st = PIdle /\ (forall a, client_of st a = KIdle).

Inductive reach_cf (c : cfg) (st0 : cstate) : cstate -> Prop :=
| rcf_init : reach_cf c st0 st0
| rcf_step st l st' o : reach_cf c st0 st -> label_cf0 l ->
    cstep c st l = StepOk st' o -> reach_cf c st0 st'.

Lemma reach_cf_reach c st0 st : reach_cf c st0 st -> reach c st0 st.
Proof. induction 1; [constructor|econstructor; eassumption]. Qed.

Lemma init_agree c mc t now : Agree (cinit c mc t now) /\ ZeroConf (cinit c mc t now).
Proof.
  split.
  - split; [|split].
    + intros k H. discriminate.
    + intros k H. discriminate.
    + exact I.
  - split; [constructor|]. split; [intros a; exact I|]. split; [exact I|intros b m []].
Qed.

Lemma reach_cf_inv c mc t now st : reach_cf c (cinit c mc t now) st -> Agree st /\ ZeroConf st.
Proof.
  induction 1 as [|st l st' o R IH L S].
  - apply init_agree.
  - destruct IH as (AG & ZC). split; [eapply Agree_step; eassumption|eapply ZeroConf_step; eassumption].
Qed.

(* C06: in a run in which every conflict hash is 0, whenever the cache is quiescent — after any
   history of inserts, updates, removes, expirations, evictions and clears, under any schedule of
   clients and processor, in either flavour — a key is resident exactly when it is charged. *)
Theorem quiescent_agree c mc t now st :
  reach_cf c (cinit c mc t now) st -> quiescent st ->
  forall k, inS st k = inC st k.
Proof.
  intros R (QB & QP & QC) k. destruct (reach_cf_inv _ _ _ _ _ R) as (AG & _).
  rewrite Agree_at in AG. specialize (AG k). rewrite QP in AG. destruct AG as (O & N).
  destruct (inS st k), (inC st k); try reflexivity; exfalso.
  - exact O.
  - destruct (N I) as [(cf & X)|(a & cf & X)]; [rewrite QB in X; destruct X|rewrite QC in X; discriminate X].
Qed.

(* C06: ... and len() equals the number of charged entries. *)
Theorem quiescent_len c mc t now st :
  reach_cf c (cinit c mc t now) st -> quiescent st ->
  st_len (s_store st) = N.of_nat (length (sl_kc (s_slfu st))).
Proof.
  intros R Q. pose proof (quiescent_agree _ _ _ _ _ R Q) as EQ. apply reach_cf_reach in R.
  unfold st_len. f_equal. rewrite <- (map_length fst (st_map (s_store st))), <- (map_length fst (sl_kc (s_slfu st))).
  apply nodup_same_members_same_length; [exact (reachable_StoreND _ _ _ _ _ R)|exact (proj2 (reach_WF _ _ _ _ _ R))|].
  intros x. fold (akeys (st_map (s_store st))) (akeys (sl_kc (s_slfu st))). rewrite <- !amem_In. apply eq_iff_eq_true, EQ.
Qed.
