(* CacheInv.v — reachability (`reach`, `reach_ind_inv`) and the inductive invariants of two
   lifecycle properties: wait() can always return (C10), a completed clear() leaves the cache
   empty (C11). *)
From StrettoModel Require Import BaseProofs Cache CacheSteps.
Open Scope N_scope.

Inductive reach (c : cfg) (st0 : cstate) : cstate -> Prop :=
| reach_init : reach c st0 st0
| reach_step st l st' o : reach c st0 st -> cstep c st l = StepOk st' o -> reach c st0 st'.

Lemma crun_reach c st0 ls st os : crun c st0 ls = Some (st, os) -> reach c st0 st.
Proof.
  apply (crun_ind_inv c (fun _ => True) (reach c st0)); [intros; econstructor; eassumption|constructor|].
  apply Forall_forall. trivial.
Qed.

Lemma reach_ind_inv c st0 (P : cstate -> Prop) :
  P st0 -> (forall st l st' o, P st -> cstep c st l = StepOk st' o -> P st') ->
  forall st, reach c st0 st -> P st.
Proof. intros H0 Hs st R. induction R; eauto. Qed.

Definition waiting (k : ccont) (id : N) : Prop := k = KWaitAfterSend id \/ k = KWaitBlock id.

Definition WaitInv (st : cstate) : Prop :=
  (s_pc st = PExited -> s_buf st = []) /\
  (forall a id, waiting (client_of st a) id -> mem_N id (s_done st) = true \/ In (IWait id) (s_buf st)).

Lemma waiting_preserved_by_others st a b k id :
  waiting (client_of (set_client st a k) b) id -> b <> a -> waiting (client_of st b) id.
Proof. rewrite client_of_set. intros H Hne. destruct (N.eqb_spec b a); [tauto|assumption]. Qed.

Lemma WaitInv_unchanged st st1 :
  s_buf st1 = s_buf st -> s_done st1 = s_done st -> s_pc st1 = s_pc st -> s_clients st1 = s_clients st ->
  WaitInv st -> WaitInv st1.
Proof.
  intros Hb Hd Hp Hc (W1 & W2). split; [rewrite Hp, Hb; assumption|].
  intros b id Hw. rewrite Hb, Hd. apply (W2 b id). unfold client_of in *. rewrite Hc in Hw. assumption.
Qed.

(* nobody can append to the buffer of an exited processor (buf_room), and the processor exits only by
   the stop arm, which drains it *)
Lemma exited_buf_step c st l st' o :
  (s_pc st = PExited -> s_buf st = []) -> cstep c st l = StepOk st' o -> s_pc st' = PExited -> s_buf st' = [].
Proof.
  intros E H. step_cases H; try exact E; intros X; try congruence.
  all: unfold buf_room in *; tauto.
Qed.

Lemma marker_kept c st l st' o id :
  cstep c st l = StepOk st' o ->
  mem_N id (s_done st) = true \/ In (IWait id) (s_buf st) ->
  mem_N id (s_done st') = true \/ In (IWait id) (s_buf st').
Proof.
  intros H M. step_cases H; try exact M.
  (* ClInsSent, ClRemSent, ClWaitSent *)
  1-3: rewrite in_app_iff; tauto.
  (* PrNew, PrUpdate, PrDelete, PrWait: the head item is taken *)
  1-4: match goal with B : s_buf _ = _ :: _ |- _ => rewrite B in M end; cbn [mem_N In] in *;
    rewrite ?orb_true_iff, ?N.eqb_eq; intuition congruence.
  (* PrClear; PrStop with StBuffered, StOffered: the buffer is drained *)
  1: left; apply drain_items_done; tauto.
  1-2: left; rewrite mem_N_app; apply orb_true_iff; right; apply drain_items_done; tauto.
  (* PrClearAck *)
  - cbn [mem_N]. rewrite orb_true_iff. tauto.
Qed.

Lemma waiting_new c st l st' o b id :
  cstep c st l = StepOk st' o -> waiting (client_of st' b) id ->
  waiting (client_of st b) id \/ In (IWait id) (s_buf st').
Proof.
  intros H. unfold waiting. step_cases H; clients; auto.
  all: destruct (N.eqb_spec b a) as [->|_]; [|auto]; known; intros [W|W]; try discriminate W.
  - (* ClWaitSent *) injection W as <-. right. apply in_or_app. right. left. reflexivity.
  - (* ClWaitBlocks *) injection W as <-. auto.
Qed.

Theorem WaitInv_step c st l st' o : WaitInv st -> cstep c st l = StepOk st' o -> WaitInv st'.
Proof.
  intros (W1 & W2) H. split; [eapply exited_buf_step; eassumption|].
  intros b id Wb. destruct (waiting_new _ _ _ _ _ _ _ H Wb) as [X|X]; [|right; exact X].
  eapply marker_kept; [exact H|exact (W2 b id X)].
Qed.

Lemma WaitInv_init c mc t now : WaitInv (cinit c mc t now).
Proof. split; [discriminate|]. intros a id [H|H]; discriminate. Qed.

(* C10: in every reachable state a client blocked in wait() can return now (its marker was handled or
   drained), or its marker sits in the insert buffer of a live processor *)
Theorem wait_never_stuck c mc t now st a id :
  reach c (cinit c mc t now) st -> client_of st a = KWaitBlock id ->
  (exists st', continue_client c st a = StepOk st' (mk_out PtFinish [] (RUnit true))) \/
  (In (IWait id) (s_buf st) /\ s_pc st <> PExited).
Proof.
  intros R K.
  assert (WI : WaitInv st).
  { apply (reach_ind_inv c (cinit c mc t now) WaitInv); [apply WaitInv_init|exact (WaitInv_step c)|exact R]. }
  destruct WI as (W1 & W2). destruct (W2 a id) as [Hd|Hi]; [rewrite K; right; reflexivity| |].
  - left. unfold continue_client. rewrite K, Hd. eauto.
  - right. split; [assumption|]. intros PE. rewrite (W1 PE) in Hi. destruct Hi.
Qed.

(* C10: at its loop head the processor can take a wait marker heading its buffer, which releases it *)
Theorem processor_takes_wait_marker c st id r :
  s_pc st = PIdle -> s_buf st = IWait id :: r ->
  exists st', proc_step c st (arm_hint ArmItem) =
                StepOk st' (mk_out PtProcLoop [] RNone) /\ mem_N id (s_done st') = true /\ s_buf st' = r.
Proof.
  intros PC B. unfold proc_step. rewrite PC. cbn [h_arm arm_hint]. rewrite B.
  eexists. split; [reflexivity|]. sproj. cbn [mem_N]. rewrite N.eqb_refl. auto.
Qed.

Definition ClearEmpty (st : cstate) : Prop :=
  (forall sig, s_pc st = PClearAfterPolicy sig -> sl_kc (s_slfu st) = [] /\ sl_used (s_slfu st) = 0%Z) /\
  (forall sig, s_pc st = PClearAfterStore sig ->
     sl_kc (s_slfu st) = [] /\ sl_used (s_slfu st) = 0%Z /\ s_store st = st_empty).

Lemma empty_try_update vld k v c t : st_try_update vld st_empty k v c t = (st_empty, UNotExist).
Proof. reflexivity. Qed.
Lemma empty_try_remove k c : st_try_remove st_empty k c = (st_empty, None).
Proof. reflexivity. Qed.
Lemma empty_write k v : st_write st_empty k v = st_empty.
Proof. reflexivity. Qed.

Theorem ClearEmpty_step c st l st' o : ClearEmpty st -> cstep c st l = StepOk st' o -> ClearEmpty st'.
Proof.
  intros CE H. pose proof CE as (CP & CS). unfold ClearEmpty.
  step_cases H; try exact CE; try (split; intros sg X; congruence).
  (* OpInsUpdate, OpRemove, ClGetMutHit: clients may write the store between the steps of a clear, but
     in an empty store they find nothing to write *)
  - split; [exact CP|]. intros sg X. destruct (CS sg X) as (A & B & D).
    match goal with T : st_try_update _ _ _ _ _ _ = _ |- _ => rewrite D, empty_try_update in T; discriminate T end.
  - split; [exact CP|]. intros sg X. destruct (CS sg X) as (A & B & D).
    match goal with T : st_try_remove _ _ _ = _ |- _ => rewrite D, empty_try_remove in T; injection T as <- _ end. auto.
  - split; [exact CP|]. intros sg X. destruct (CS sg X) as (A & B & D). rewrite D. auto.
  (* PrClearPolicy, PrClearStore *)
  - split; intros sg X; [|discriminate X]. auto.
  - split; intros sg X; [discriminate X|]. destruct (CP sig) as (A & B); auto.
Qed.

(* C11: in every reachable state, the step in which the processor acknowledges a clear() (and lets it
   return) leaves no resident entry, no expiry listing, no charge, a charged total of zero
   and, with metrics on, every counter at zero.  Clients may have run in between: only the processor
   adds entries or charges. *)
Theorem clear_ack_leaves_cache_empty c mc t now st sig h :
  reach c (cinit c mc t now) st -> s_pc st = PClearAfterStore sig ->
  exists st', proc_step c st h = StepOk st' (mk_out PtProcLoop [] RNone) /\
    mem_N sig (s_done st') = true /\
    s_store st' = st_empty /\ sl_kc (s_slfu st') = [] /\ sl_used (s_slfu st') = 0%Z /\
    (c_metrics c = true -> s_mets st' = metrics_zero) /\ s_pc st' = PIdle.
Proof.
  intros R PC.
  assert (CE : ClearEmpty st).
  { apply (reach_ind_inv c (cinit c mc t now) ClearEmpty); [|exact (ClearEmpty_step c)|exact R].
    split; intros sg X; discriminate X. }
  destruct CE as (_ & CS). destruct (CS sig PC) as (A & B & D).
  unfold proc_step. rewrite PC. eexists. split; [reflexivity|].
  destruct (c_metrics c); sproj; cbn [mem_N]; rewrite N.eqb_refl; repeat split; auto; discriminate.
Qed.

(* C11: the clear arm hands every buffered New item to on_evict and releases every buffered waiter
   (middle conjunct: the callbacks collected before are kept, which the induction needs) *)
Theorem clear_drains_buffer its : forall done cbs done' cbs',
  drain_items its done cbs = (done', cbs') ->
  (forall k cf cost v exp, In (INew k cf cost v exp) its -> In (CbEvict k cf v cost) cbs') /\
  (forall x, In x cbs -> In x cbs') /\
  (forall id, In (IWait id) its -> mem_N id done' = true).
Proof.
  intros done cbs done' cbs' H.
  assert (W : forall id, In (IWait id) its -> mem_N id done' = true).
  { intros id I. replace done' with (fst (drain_items its done cbs)) by (rewrite H; reflexivity).
    apply drain_items_done. auto. }
  enough ((forall k cf cost v exp, In (INew k cf cost v exp) its -> In (CbEvict k cf v cost) cbs') /\
          (forall x, In x cbs -> In x cbs')) by tauto.
  clear W. revert done cbs H. induction its as [|it its IH]; intros done cbs; cbn [drain_items].
  - intros [= _ <-]. split; [intros k cf cost v exp F; destruct F|auto].
  - intros H. destruct it; destruct (IH _ _ H) as (A & B);
      (split; [intros k' cf' cost' v' exp' [E|I]; [try discriminate E|eauto]|]); try exact B.
    + injection E as -> -> -> -> ->. apply B, in_or_app. right. left. reflexivity.
    + intros x Hx. apply B, in_or_app. auto.
Qed.
