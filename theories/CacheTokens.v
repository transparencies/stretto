(* CacheTokens.v — property C08: values are conserved.  Every step of every actor moves values
   between "held by the cache", "handed to a callback" and the two silent exits (clear() dropping the
   store, a get_mut write overwriting in place); nothing is duplicated and nothing vanishes. *)
From StrettoModel Require Import BaseProofs StoreProofs Cache CacheSteps CacheAgree.
Open Scope N_scope.

Definition cnt (l : list N) (x : N) : nat := count_occ N.eq_dec l x.

(* count_occ_app, flat_map_app and map_app of the library, stated on cnt, buf_vals and cb_vals:
   rewriting with these leaves the three folded, as the lemmas below and lia's atoms need them *)
Lemma cnt_app l1 l2 x : cnt (l1 ++ l2) x = (cnt l1 x + cnt l2 x)%nat.
Proof. apply count_occ_app. Qed.
Lemma cnt_nil x : cnt [] x = 0%nat.
Proof. reflexivity. Qed.

Definition vals (m : amap entry) : list N := map (fun p => e_val (snd p)) m.
Definition item_vals (it : item) : list N := match it with INew _ _ _ v _ => [v] | _ => [] end.
Definition buf_vals (b : list item) : list N := flat_map item_vals b.
Definition cb_val (cb : cbk) : N := match cb with CbExit v => v | CbEvict _ _ v _ => v | CbReject _ _ v _ => v end.
Definition cb_vals (cbs : list cbk) : list N := map cb_val cbs.
Definition pc_vals (p : ppc) : list N :=
  match p with
  | PNewAfterAdd _ _ v _ _ _ _ => [v]
  | PTickKey _ _ _ acc => cb_vals acc
  | PTickAfterPolicy _ _ _ _ acc => cb_vals acc
  | _ => []
  end.

Definition held (st : cstate) : list N :=
  vals (st_map (s_store st)) ++ buf_vals (s_buf st) ++ pc_vals (s_pc st).

Lemma buf_vals_app a b : buf_vals (a ++ b) = buf_vals a ++ buf_vals b.
Proof. apply flat_map_app. Qed.
Lemma buf_vals_cons it its : buf_vals (it :: its) = item_vals it ++ buf_vals its.
Proof. reflexivity. Qed.
Lemma cb_vals_app a b : cb_vals (a ++ b) = cb_vals a ++ cb_vals b.
Proof. apply map_app. Qed.

Lemma vals_adel_present k (m : amap entry) e x :
  NoDup (akeys m) -> aget k m = Some e -> (cnt (vals (adel k m)) x + cnt [e_val e] x = cnt (vals m) x)%nat.
Proof.
  induction m as [|[a b] m IH]; cbn [aget adel akeys map fst]; [discriminate|]. intros ND G.
  inversion ND as [|? ? Hn ND']; subst. destruct (N.eqb_spec k a) as [->|Hne].
  - inversion G; subst. rewrite (adel_notin a m Hn), (cnt_app [e_val e] (vals m)). apply Nat.add_comm.
  - specialize (IH ND' G). rewrite (cnt_app [e_val b] (vals (adel k m))), (cnt_app [e_val b] (vals m)). lia.
Qed.

Lemma vals_aset k (m : amap entry) e x : cnt (vals (aset k e m)) x = (cnt [e_val e] x + cnt (vals (adel k m)) x)%nat.
Proof. apply (cnt_app [e_val e]). Qed.

Lemma cnt_try_update vld s k v c t s' r x :
  NoDup (akeys (st_map s)) -> st_try_update vld s k v c t = (s', r) ->
  match r with
  | UUpdate old => (cnt (vals (st_map s')) x + cnt [old] x = cnt (vals (st_map s)) x + cnt [v] x)%nat
  | _ => s' = s
  end.
Proof.
  intros ND. unfold st_try_update. destruct (aget k (st_map s)) as [e|] eqn:G; [|intros [= <- <-]; reflexivity].
  destruct (negb (conflict_ok c e)); [intros [= <- <-]; reflexivity|].
  destruct (negb (vld (e_val e) v)); intros [= <- <-]; [reflexivity|].
  cbn [st_map]. rewrite vals_aset. pose proof (vals_adel_present k _ e x ND G). cbn [e_val]. lia.
Qed.

Lemma cnt_try_remove s k c s' prev x :
  NoDup (akeys (st_map s)) -> st_try_remove s k c = (s', prev) ->
  (cnt (vals (st_map s')) x + cnt (cb_vals (exit_cb prev)) x = cnt (vals (st_map s)) x)%nat.
Proof.
  intros ND. unfold st_try_remove. destruct (aget k (st_map s)) as [e|] eqn:G; [|intros [= <- <-]; apply Nat.add_0_r].
  destruct (negb (conflict_ok c e)); intros [= <- <-]; [apply Nat.add_0_r|].
  exact (vals_adel_present k (st_map s) e x ND G).
Qed.

Lemma evict_cb_vals k prev cost : cb_vals (evict_cb k prev cost) = cb_vals (exit_cb prev).
Proof. destruct prev; reflexivity. Qed.

Lemma cnt_try_insert_absent vld s k v c t x :
  aget k (st_map s) = None -> cnt (vals (st_map (st_try_insert vld s k v c t))) x = (cnt (vals (st_map s)) x + cnt [v] x)%nat.
Proof. intros G. unfold st_try_insert. rewrite G. cbn [st_map]. rewrite vals_aset, (adel_absent _ _ G). apply Nat.add_comm. Qed.

Lemma cnt_write s k v x e :
  NoDup (akeys (st_map s)) -> aget k (st_map s) = Some e ->
  (cnt (vals (st_map (st_write s k v))) x + cnt [e_val e] x = cnt (vals (st_map s)) x + cnt [v] x)%nat.
Proof.
  intros ND G. unfold st_write. rewrite G. cbn [st_map]. rewrite vals_aset.
  pose proof (vals_adel_present k _ e x ND G). cbn [e_val]. lia.
Qed.

Lemma cnt_drain_items its : forall d cbs x,
  cnt (cb_vals (snd (drain_items its d cbs))) x = (cnt (cb_vals cbs) x + cnt (buf_vals its) x)%nat.
Proof.
  induction its as [|it its IH]; intros d cbs x; cbn [drain_items]; [apply plus_n_O|].
  rewrite buf_vals_cons, cnt_app. destruct it; rewrite IH, ?cb_vals_app, ?cnt_app; cbn [item_vals cb_vals map cb_val]; rewrite ?cnt_nil; lia.
Qed.

Definition incoming (c : cfg) (st : cstate) (l : label) : list N :=
  match l with
  | LOp a (OInsert k cf v cost ttl only) =>
      if s_closed st then [] else
      match snd (st_try_update (c_validator c) (s_store st) k v cf {| t_created := s_now st; t_d := ttl |}) with
      | UUpdate _ => [v]
      | _ => []
      end
  | LClient a =>
      match client_of st a with
      | KInsSend it _ => match buf_send c st it with Some _ => item_vals it | None => [] end
      | KGetStore k cf (Some v) => match st_get (s_now st) (s_store st) k cf with Some _ => [v] | None => [] end
      | _ => []
      end
  | _ => []
  end.

Definition lost (c : cfg) (st : cstate) (l : label) : list N :=
  match l with
  | LClient a =>
      match client_of st a with
      | KGetStore k cf (Some v) => match st_get (s_now st) (s_store st) k cf with Some e => [e_val e] | None => [] end
      | _ => []
      end
  | LProc _ => match s_pc st with PClearAfterPolicy _ => vals (st_map (s_store st)) | _ => [] end
  | _ => []
  end.

(* an admitted New item finds its key absent (true in every reachable state of a collision-free run:
   Agree's PcOk clause) *)
Definition admit_absent (st : cstate) : Prop :=
  forall k cf v exp cost vs, s_pc st = PNewAfterAdd k cf v exp cost vs true -> aget k (st_map (s_store st)) = None.

(* A value enters with an insert that updates a resident key (the old value goes to on_exit), with
   the send of a New item, and with a get_mut write (the old value is overwritten).  It leaves
   through the callback of a remove, a rejection, an eviction, a drained buffer, or silently when
   clear() empties the store. *)
Theorem token_step c st l st' o x :
  StoreND st -> admit_absent st -> cstep c st l = StepOk st' o ->
  cnt (held st ++ incoming c st l) x = cnt (held st' ++ cb_vals (o_cbs o) ++ lost c st l) x.
Proof.
  intros ND AA H. unfold held.
  (* the rule's premises decide the scrutinees of incoming, lost and held *)
  step_cases H; cbn [incoming lost o_cbs mk_out]; known;
    repeat match goal with
           | E : s_closed _ = _ |- _ => rewrite E
           | E : s_buf _ = _ |- _ => rewrite E
           | E : st_try_update _ _ _ _ _ _ = _ |- _ => rewrite E
           | E : st_get _ _ _ _ = _ |- _ => rewrite E
           end;
    cbn [pc_vals snd]; try reflexivity.
  (* OpInsAbsent, OpInsNew *)
  3-4: match goal with N : forall old, _ <> UUpdate old |- _ => destruct r; [reflexivity..|destruct (N _ eq_refl)] end.
  (* OpClosed *)
  1: destruct op; reflexivity.
  (* ClInsSent, ClInsUpdateLost, ClInsDropped *)
  all: try match goal with
       | R : buf_room _ _ |- context [buf_send _ _ ?it] => rewrite (buf_room_send _ _ it R)
       | R : ~ buf_room _ _ |- context [buf_send _ _ ?it] => rewrite (buf_send_full _ _ it R)
       end.
  all: rewrite ?buf_vals_app, ?buf_vals_cons, ?cb_vals_app, ?evict_cb_vals, !cnt_app, ?cnt_drain_items;
    cbn [buf_vals flat_map item_vals cb_vals map cb_val app st_map st_empty vals]; rewrite ?cnt_nil.
  all: try match goal with E : st_try_remove _ _ _ = _ |- _ => pose proof (cnt_try_remove _ _ _ _ _ x ND E) end.
  all: try match goal with E : st_try_update _ _ _ _ _ _ = (_, UUpdate _) |- _ =>
             pose proof (cnt_try_update _ _ _ _ _ _ _ _ x ND E) as F; cbn beta iota in F end.
  all: try match goal with G : st_get _ _ ?k _ = Some ?e |- context [st_write _ _ ?v] =>
             pose proof (cnt_write _ k v x e ND (st_get_stored _ _ _ _ _ G)) end.
  all: try rewrite cnt_try_insert_absent by (eapply AA; eassumption).
  all: lia.
Qed.

Inductive trace (c : cfg) (st0 : cstate) : cstate -> list N -> list N -> list N -> Prop :=
| tr_init : trace c st0 st0 [] [] []
| tr_step st ins cbs ls l st' o :
    trace c st0 st ins cbs ls -> label_cf0 l -> cstep c st l = StepOk st' o ->
    trace c st0 st' (ins ++ incoming c st l) (cbs ++ cb_vals (o_cbs o)) (ls ++ lost c st l).

Lemma trace_reach c st0 st ins cbs ls : trace c st0 st ins cbs ls -> reach_cf c st0 st.
Proof. induction 1; [constructor|econstructor; eassumption]. Qed.

(* C08, conservation: in every collision-free run — any history, any number of clients, any schedule —
   the values that entered the cache (accepted inserts and in-place writes) are, counted with
   multiplicity, exactly: those it still holds (resident, buffered, in the processor's hands), those
   handed to callbacks, and those dropped silently by clear() or overwritten in place through
   get_mut. *)
Theorem values_are_conserved c mc t now st ins cbs ls x :
  trace c (cinit c mc t now) st ins cbs ls ->
  cnt ins x = cnt (held st ++ cbs ++ ls) x.
Proof.
  intros T. induction T as [|st ins cbs ls l st' o T IH L S].
  - reflexivity.
  - pose proof (trace_reach _ _ _ _ _ _ T) as R. destruct (reach_cf_inv _ _ _ _ _ R) as (A & _).
    pose proof (token_step c st l st' o x (reachable_StoreND _ _ _ _ _ (reach_cf_reach _ _ _ R)) (Agree_admit_absent st A) S) as TS.
    rewrite !cnt_app in *. lia.
Qed.

(* exactly one place: if every value written during the run is distinct, no value is at once held and
   handed back, none is handed back twice, none is both handed back and dropped *)
Theorem each_value_is_in_exactly_one_place c mc t now st ins cbs ls :
  trace c (cinit c mc t now) st ins cbs ls -> NoDup ins -> NoDup (held st ++ cbs ++ ls).
Proof.
  intros T ND. apply (NoDup_count_occ N.eq_dec). intros x.
  pose proof (values_are_conserved c mc t now st ins cbs ls x T) as E. unfold cnt in E. rewrite <- E.
  apply (NoDup_count_occ N.eq_dec). exact ND.
Qed.

(* a value handed to a callback is not held any more (nor later in the run: cbs only grows) *)
Theorem handed_back_is_gone c mc t now st ins cbs ls v :
  trace c (cinit c mc t now) st ins cbs ls -> NoDup ins -> In v cbs -> ~ In v (held st).
Proof.
  intros T ND Hc Hh. pose proof (values_are_conserved c mc t now st ins cbs ls v T) as E.
  assert (P1 : (cnt ins v <= 1)%nat) by (apply (NoDup_count_occ N.eq_dec); exact ND).
  assert (P2 : (0 < cnt (held st) v)%nat) by (apply (count_occ_In N.eq_dec); exact Hh).
  assert (P3 : (0 < cnt cbs v)%nat) by (apply (count_occ_In N.eq_dec); exact Hc).
  rewrite !cnt_app in E. lia.
Qed.

(* and nothing accepted is lost: whatever entered is still held, was handed back, or was dropped by
   clear()/an in-place write *)
Theorem nothing_vanishes c mc t now st ins cbs ls v :
  trace c (cinit c mc t now) st ins cbs ls -> In v ins -> In v (held st) \/ In v cbs \/ In v ls.
Proof.
  intros T Hi. pose proof (values_are_conserved c mc t now st ins cbs ls v T) as E.
  assert (P : (0 < cnt ins v)%nat) by (apply (count_occ_In N.eq_dec); exact Hi).
  rewrite E in P. apply (count_occ_In N.eq_dec) in P. apply in_app_or in P. destruct P as [P|P]; [auto|].
  apply in_app_or in P. tauto.
Qed.
