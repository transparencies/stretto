(* CacheNoPanic.v — property C20: no step of the cache panics, for every configuration, history and
   schedule with a monotone clock: sketch and doorkeeper stay well-formed for every counter width, and
   every stored deadline and every tracked admission time was taken at or before "now". *)
From StrettoModel Require Import BaseProofs TinyLFUProofs PolicyProofs StoreProofs Cache CacheSteps CacheInv CacheProofs.
Open Scope N_scope.

Definition item_time_ok (now : N) (it : item) : Prop :=
  match it with INew _ _ _ _ exp => t_created exp <= now | _ => True end.

Definition cont_time_ok (now : N) (k : ccont) : Prop :=
  match k with KInsSend it _ => item_time_ok now it | _ => True end.

Definition pc_time_ok (now : N) (p : ppc) : Prop :=
  match p with PNewAfterAdd _ _ _ exp _ _ _ => t_created exp <= now | _ => True end.

Definition store_time_ok (now : N) (s : storage) : Prop :=
  forall k e, aget k (st_map s) = Some e -> t_created (e_exp e) <= now.

(* NP ("no panic").  [no_step_panics] uses three conjuncts: the estimator is well-formed and the
   queued batches hold u64 hashes (on those the worker's increments are total: the doorkeeper's
   probe [bl_loc] has the u64 overflow check of a debug build, and the model's keys are unbounded);
   every stored deadline was taken at or before "now" (Time::get_ttl subtracts).  The others make
   these inductive: a deadline reaches the store from a client's continuation through the insert
   buffer and the processor's program point, a batch reaches the queue from the ring. *)
Definition NP (st : cstate) : Prop :=
  tl_wf (s_tlfu st) /\
  store_time_ok (s_now st) (s_store st) /\
  Forall (item_time_ok (s_now st)) (s_buf st) /\
  (forall a, cont_time_ok (s_now st) (client_of st a)) /\
  pc_time_ok (s_now st) (s_pc st) /\
  Forall (fun k => k < two64) (s_ring st) /\
  Forall (Forall (fun k => k < two64)) (s_pqueue st).

(* the key hashes of the Rust API are u64; it matters only where they are recorded in the estimator,
   which is for lookups *)
Definition label_u64 (l : label) : Prop :=
  match l with
  | LOp _ (OGet k _) => k < two64
  | LOp _ (OGetMutWrite k _ _) => k < two64
  | _ => True
  end.

Lemma store_time_wr now s s' :
  store_time_ok now s -> store_wr (fun t => t_created t <= now) s s' -> store_time_ok now s'.
Proof.
  intros S W k' e'. destruct W as [|k e v G|k e e1 c G T|k e1 c G T|k e G]; cbn [st_map]; try apply S.
  all: destruct (N.eq_dec k' k) as [->|Hne]; [|rewrite ?aget_aset_other, ?aget_adel_other by assumption; apply S].
  - rewrite aget_aset_same. intros [= <-]. exact (S k e G).
  - rewrite aget_aset_same. intros [= <-]. exact T.
  - rewrite aget_aset_same. intros [= <-]. exact T.
  - rewrite aget_adel_same. discriminate.
Qed.

(* SO ("starts ordered"): every tracked admission time was taken at or before "now", so that
   Time::elapsed does not panic when an eviction samples the life expectancy *)
Definition SO (st : cstate) : Prop := forall k ts, aget k (s_start st) = Some ts -> ts <= s_now st.

(* stated on [r] so that [r = None] serves [no_step_panics] and [r = Some _] serves [SO_step] *)
Lemma prepare_evict_SO c st k r :
  prepare_evict c st k = r -> SO st -> match r with Some st1 => SO st1 | None => False end.
Proof.
  intros <- S. unfold prepare_evict. destruct (c_metrics c); [|exact S].
  destruct (aget k (s_start st)) as [ts|] eqn:E; [|exact S].
  specialize (S k ts E) as Hle. destruct (N.ltb_spec (s_now st) ts); [lia|].
  intros k' ts'. sproj. destruct (N.eq_dec k' k) as [->|Hne]; [rewrite aget_adel_same; discriminate|].
  rewrite aget_adel_other by assumption. apply S.
Qed.

Lemma prepare_evicts_SO c cbs : forall st r,
  prepare_evicts c st cbs = r -> SO st -> match r with Some st1 => SO st1 | None => False end.
Proof.
  induction cbs as [|cb cbs IH]; intros st r <- S; cbn [prepare_evicts]; [exact S|].
  destruct cb; try exact (IH st _ eq_refl S).
  pose proof (prepare_evict_SO c st k _ eq_refl S) as S1.
  destruct (prepare_evict c st k) as [st1|]; [exact (IH st1 _ eq_refl S1)|exact S1].
Qed.

Lemma track_admission_SO c st k st1 : SO st -> track_admission c st k = Some st1 -> SO st1.
Proof.
  intros S. unfold track_admission. destruct (c_metrics c); [|intros [= <-]; exact S].
  destruct (_ <? _); [discriminate|]. intros [= <-] k' ts'. sproj.
  destruct (N.eq_dec k' k) as [->|Hne]; [rewrite aget_aset_same; intros [= <-]; apply N.le_refl|].
  rewrite aget_aset_other by assumption. apply S.
Qed.

Lemma stored_ttl now s k t : store_time_ok now s -> st_expiration s k = Some t -> t_get_ttl now t <> None.
Proof.
  intros S. unfold st_expiration. destruct (aget k (st_map s)) as [e|] eqn:E; [|discriminate]. intros [= <-].
  destruct (get_ttl_total now (e_exp e) (S k e E)) as (d & ->). discriminate.
Qed.

Ltac scrutinees := repeat match goal with |- match ?x with _ => _ end <> _ => destruct x eqn:? end.

(* The model has six panic sites: get_ttl in the client (twice: excluded by the deadlines of [NP]),
   the eviction loop (never panics, [pol_add_no_panic]), Time::elapsed when on_evict callbacks fire
   (end of a cleanup, a victim: excluded by [SO]), and the sketch increments of the worker (excluded
   by the first and last conjunct of [NP]). *)
Theorem no_step_panics c st l w : NP st -> SO st -> cstep c st l <> StepPanic w.
Proof.
  intros (TW & ST & _ & _ & _ & _ & QH) S. destruct l as [a op|a|h|h|dt|]; cbn [cstep]; try discriminate.
  - destruct (client_of st a); try discriminate. destruct op; cbn [start_op]; scrutinees; try discriminate.
    exfalso. eapply stored_ttl; eassumption.
  - unfold continue_client. scrutinees; try discriminate.
    exfalso. eapply stored_ttl; [exact ST|eapply st_get_expiration; eassumption|eassumption].
  - unfold proc_step, proc_handle_item, tick_next. scrutinees; try discriminate.
    1: (* pol_add = AddPanic *) exfalso; eapply pol_add_no_panic; [apply est_of_small|eassumption].
    all: match goal with E : prepare_evicts _ _ _ = None |- _ => destruct (prepare_evicts_SO _ _ _ _ E S) end.
  - unfold worker_step. scrutinees; try discriminate.
    inversion QH as [|? ? Hb _]; subst. destruct (increments_total _ _ TW Hb) as (? & ? & _). congruence.
Qed.

Lemma NP_frame st st1 :
  NP st -> s_tlfu st1 = s_tlfu st -> s_now st1 = s_now st -> s_store st1 = s_store st -> s_buf st1 = s_buf st ->
  s_clients st1 = s_clients st -> s_pc st1 = s_pc st -> s_ring st1 = s_ring st -> s_pqueue st1 = s_pqueue st -> NP st1.
Proof.
  intros Inv H1 H2 H3 H4 H5 H6 H7 H8. unfold NP, client_of. rewrite H1, H2, H3, H4, H5, H6, H7, H8. exact Inv.
Qed.

Lemma NP_client st st1 a k :
  NP st -> s_tlfu st1 = s_tlfu st -> s_now st1 = s_now st -> s_store st1 = s_store st -> s_buf st1 = s_buf st ->
  s_clients st1 = s_clients st -> s_pc st1 = s_pc st -> s_ring st1 = s_ring st -> s_pqueue st1 = s_pqueue st ->
  cont_time_ok (s_now st) k -> NP (set_client st1 a k).
Proof.
  intros Inv H1 H2 H3 H4 H5 H6 H7 H8 Hk. destruct (NP_frame st st1 Inv H1 H2 H3 H4 H5 H6 H7 H8) as (A & B & C & D & E).
  unfold NP; sproj. split; [assumption|]. split; [assumption|]. split; [assumption|]. split; [|assumption].
  apply (client_of_set_all (cont_time_ok _)); [exact D|]. rewrite H2. exact Hk.
Qed.

Lemma policy_push_queue c st ks :
  s_pqueue (policy_push c st ks) = s_pqueue st \/ s_pqueue (policy_push c st ks) = s_pqueue st ++ [ks].
Proof.
  unfold policy_push. destruct (s_pol_closed st); [auto|]. destruct ks; [auto|].
  match goal with |- context [if ?b then _ else _] => destruct b end; rewrite emit_eq; auto.
Qed.

Lemma ring_push_Forall (P : N -> Prop) c st k :
  P k -> Forall P (s_ring st) -> Forall (Forall P) (s_pqueue st) ->
  Forall P (s_ring (ring_push c st k)) /\ Forall (Forall P) (s_pqueue (ring_push c st k)).
Proof.
  intros K R Q. pose proof (Forall_snoc _ _ _ R K) as R'. unfold ring_push. destruct (_ <=? _); [|split; assumption].
  split; [rewrite policy_push_eq; constructor|].
  destruct (policy_push_queue c (upd_ring st []) (s_ring st ++ [k])) as [-> | ->]; [exact Q|apply Forall_snoc; assumption].
Qed.

Lemma item_time_mono now now' it : now <= now' -> item_time_ok now it -> item_time_ok now' it.
Proof. destruct it; cbn [item_time_ok]; auto. lia. Qed.

Lemma NP_advance st dt : NP st -> NP (upd_now st (s_now st + dt)).
Proof.
  intros (TW & ST & BT & CT & PT & RH & QH). unfold NP; sproj.
  split; [exact TW|]. split; [|split; [|split; [|split; [|split; assumption]]]].
  - intros k e X. specialize (ST k e X). lia.
  - eapply Forall_impl; [|exact BT]. intros it. apply item_time_mono. lia.
  - intros b. specialize (CT b). change (client_of (upd_now st (s_now st + dt)) b) with (client_of st b).
    destruct (client_of st b); try exact I. revert CT. apply item_time_mono. lia.
  - destruct (s_pc st); try exact I. cbn [pc_time_ok] in *. lia.
Qed.

Theorem NP_step c st l st' o : NP st -> label_u64 l -> cstep c st l = StepOk st' o -> NP st'.
Proof.
  intros Inv L H. pose proof Inv as (TW & ST & BT & CT & PT & RH & QH).
  step_cases H; try exact Inv; try exact (NP_advance st dt Inv).
  all: try match goal with
           | E : s_buf _ = _ :: _ |- _ => rewrite E in BT; inversion BT; subst
           | E : s_pqueue _ = _ :: _ |- _ => rewrite E in QH; inversion QH; subst
           end.
  all: unfold NP; sproj; (split; [|split; [|split; [|split; [|split; [|split]]]]]); try assumption; try exact I;
    try (apply (client_of_set_all (cont_time_ok _)); [exact CT|try exact I]).
  (* OpRemove, PrVictimLast, PrVictimNext, PrDeleted, PrTickRemoved *)
  all: try (eapply store_time_wr; [exact ST|eapply try_remove_wr; eassumption]).
  (* ClInsSent, ClRemSent, ClWaitSent *)
  all: try (apply Forall_snoc; [exact BT|try exact I]).
  (* PrClear, PrStop *)
  all: try apply Forall_nil.
  (* OpGet, OpGetMut *)
  all: try (apply ring_push_Forall; assumption).
  - (* OpInsUpdate: the deadline is taken now *)
    eapply store_time_wr; [exact ST|eapply try_update_wr; [eassumption|]]. apply N.le_refl.
  - (* OpInsNew: likewise *)
    exact (N.le_refl _).
  - (* ClInsSent *)
    lazymatch goal with K : client_of _ ?a = _ |- _ => specialize (CT a); rewrite K in CT; exact CT end.
  - (* ClGetMutHit *)
    eapply store_time_wr; [exact ST|apply write_wr].
  - (* PrAdmit *)
    eapply store_time_wr; [exact ST|apply try_insert_wr].
    lazymatch goal with E : s_pc _ = _ |- _ => rewrite E in PT; exact PT end.
  - (* PrClearPolicy *)
    apply tl_clear_wf. exact TW.
  - (* PrClearStore *)
    intros k e X. discriminate X.
  - (* WkBatch *)
    lazymatch goal with B : Forall _ batch |- _ => destruct (increments_total _ _ TW B) as (t2 & E & W2 & _) end.
    congruence.
Qed.

Theorem SO_step c st l st' o : SO st -> cstep c st l = StepOk st' o -> SO st'.
Proof.
  intros S H.
  step_cases H; try exact S; try match goal with |- SO (upd_pc ?s _) => change (SO s) end.
  (* TkDone, PrVictimLast, PrVictimNext *)
  all: try match goal with E : prepare_evicts _ _ _ = Some _ |- _ => exact (prepare_evicts_SO _ _ _ _ E S) end.
  - (* PrAdmit *) eapply track_admission_SO; [|eassumption]. exact S.
  - (* StepAdvance *) intros k ts X. specialize (S k ts X). sproj. lia.
Qed.

Inductive reach_u64 (c : cfg) (st0 : cstate) : cstate -> Prop :=
| ru_init : reach_u64 c st0 st0
| ru_step st l st' o : reach_u64 c st0 st -> label_u64 l -> cstep c st l = StepOk st' o -> reach_u64 c st0 st'.

Lemma reach_u64_reach c st0 st : reach_u64 c st0 st -> reach c st0 st.
Proof. induction 1 as [|st l st' o R IH L S]; [constructor|econstructor; eassumption]. Qed.

Lemma crun_reach_u64 c st0 ls st os :
  Forall label_u64 ls -> crun c st0 ls = Some (st, os) -> reach_u64 c st0 st.
Proof.
  intros F. apply (crun_ind_inv c label_u64 (reach_u64 c st0)); [intros; econstructor; eassumption|constructor|exact F].
Qed.

Lemma NP_init c mc t now : tl_wf t -> NP (cinit c mc t now).
Proof.
  intros W. unfold NP, cinit, client_of; sproj. split; [exact W|]. split; [intros k e X; discriminate X|].
  split; [constructor|]. split; [intros a; exact I|]. split; [exact I|]. split; constructor.
Qed.

Lemma SO_init c mc t now : SO (cinit c mc t now).
Proof. intros k ts X. discriminate X. Qed.

Lemma reachable_NP c mc t now st : tl_wf t -> reach_u64 c (cinit c mc t now) st -> NP st /\ SO st.
Proof.
  intros W R. induction R as [|st l st' o R IH L S]; [split; [apply NP_init; exact W|apply SO_init]|].
  destruct IH as (Inv & SOs). split; [eapply NP_step; eassumption|eapply SO_step; eassumption].
Qed.

(* C20: whatever configuration the builder accepted — any num_counters >= 1 (the sketch and the
   doorkeeper it dimensions are well-formed), any max_cost (negative included), any buffer sizes,
   metrics on or off, either flavour — and whatever the history and schedule, no step of a client,
   of the processor or of the policy worker panics.  (The hypothesis on the last label is unused.) *)
Theorem cache_never_panics c mc ctrs seeds entries locs now :
  1 <= ctrs -> length seeds = SK_DEPTH ->
  N.log2_up (N.max entries 512) <= 64 -> locs * 2 ^ N.log2_up (N.max entries 512) <= two64 ->
  exists t, tl_new ctrs seeds entries locs = Some t /\
    forall st, reach_u64 c (cinit c mc t now) st ->
    forall l w, label_u64 l -> cstep c st l <> StepPanic w.
Proof.
  intros H1 H2 H3 H4. destruct (tl_new_spec ctrs seeds entries locs H1 H2 H3 H4) as (t & E & W & _).
  exists t. split; [exact E|]. intros st R l w L.
  destruct (reachable_NP c mc t now st W R) as (Inv & SOs). apply no_step_panics; assumption.
Qed.
