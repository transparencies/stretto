(* CacheLocal.v — what a single client segment or processor segment does, in any state: C09, C12,
   C15, C16 and the sweeper's part of C05. *)
From StrettoModel Require Import BaseProofs PolicyProofs StoreProofs Cache CacheSteps.

Open Scope N_scope.

(* C12: a closed cache is inert *)
Theorem closed_is_absorbing c st a op :
  s_closed st = true ->
  match op with
  | OInsert _ _ _ _ _ _ => start_op c st a op = StepOk st (mk_out PtFinish [] (RBool false))
  | OGet _ _ => start_op c st a op = StepOk st (mk_out PtFinish [] (RGet None))
  | OGetMutWrite _ _ _ => start_op c st a op = StepOk st (mk_out PtFinish [] (RGetMut None))
  | ORemove _ _ | OWait | OClear | OClose => start_op c st a op = StepOk st (mk_out PtFinish [] (RUnit true))
  | _ => True
  end.
Proof. intros H. destruct op; cbn [start_op]; rewrite ?H; auto. Qed.

(* C09: insert_if_present on a non-resident index: false, and the state is untouched *)
Theorem if_present_absent_is_noop c st a k cf v cost :
  s_closed st = false -> aget k (st_map (s_store st)) = None ->
  start_op c st a (OInsert k cf v cost 0 true) = StepOk st (mk_out PtFinish [] (RBool false)).
Proof.
  intros Hc Ha. cbn [start_op]. rewrite Hc. rewrite (update_absent_is_noop _ _ _ _ _ _ Ha). reflexivity.
Qed.

(* C09: on a resident index whose validator accepts it is exactly an update with ttl 0 *)
Theorem if_present_resident_is_update c st a k cf v cost e :
  s_closed st = false -> aget k (st_map (s_store st)) = Some e -> conflict_ok cf e = true ->
  c_validator c (e_val e) v = true ->
  start_op c st a (OInsert k cf v cost 0 true) = start_op c st a (OInsert k cf v cost 0 false).
Proof.
  intros Hc Ha Hk Hv. cbn [start_op]. rewrite Hc. unfold st_try_update. rewrite Ha, Hk, Hv. reflexivity.
Qed.

(* C09: in the client segment a vetoed write leaves value, deadline and expiry index as they were *)
Theorem veto_client_segment c st a k cf v cost ttl only e :
  s_closed st = false -> aget k (st_map (s_store st)) = Some e -> conflict_ok cf e = true ->
  c_validator c (e_val e) v = false ->
  exists st' o, start_op c st a (OInsert k cf v cost ttl only) = StepOk st' o /\ s_store st' = s_store st /\
                o_cbs o = [].
Proof.
  intros Hc Ha Hk Hv. cbn [start_op]. rewrite Hc.
  destruct (veto_keeps_everything (c_validator c) (s_store st) k v cf {| t_created := s_now st; t_d := ttl |} e Ha Hk Hv) as (E & _).
  rewrite E. destruct only; do 2 eexists; (split; [reflexivity|]); sproj; auto.
Qed.

(* C09: ... and again when the processor later refuses the New item of that segment: on_reject fires,
   store and charges are not touched *)
Theorem reject_segment_keeps_store c st h k cf v exp cost victims :
  s_pc st = PNewAfterAdd k cf v exp cost victims false ->
  exists st', proc_step c st h = StepOk st' (mk_out PtProcNewAfterStore [CbReject k cf v cost] RNone) /\
              s_store st' = s_store st /\ s_slfu st' = s_slfu st.
Proof. intros H. unfold proc_step. rewrite H. eexists. split; [reflexivity|]. auto. Qed.

Definition charged_for (c : cfg) (cost : Z) (v : N) : Z :=
  internal_cost c (cost + (if (cost =? 0)%Z then c_coster c v else 0))%Z.

(* C16: the item a plain insert of a non-resident key sends carries cost, plus coster(v) if cost = 0 *)
Theorem new_item_cost c st a k cf v cost ttl :
  s_closed st = false -> aget k (st_map (s_store st)) = None ->
  exists st', start_op c st a (OInsert k cf v cost ttl false) =
    StepOk st' (mk_out PtInsBeforeSend [] RNone) /\
    client_of st' a = KInsSend (INew k cf (cost + (if (cost =? 0)%Z then c_coster c v else 0))%Z v
                                     {| t_created := s_now st; t_d := ttl |}) k.
Proof.
  intros Hc Ha. cbn [start_op]. rewrite Hc, (update_absent_is_noop _ _ _ _ _ _ Ha).
  eexists. split; [reflexivity|]. unfold client_of, set_client; sproj. rewrite aget_aset_same. reflexivity.
Qed.

(* C16: an admitted New item charges its key exactly internal_cost(item cost); the same amount is
   kept in the program counter for the Reject callback of a refused item *)
Theorem admission_charges_formula c st h k cf cost v exp r st' o :
  s_pc st = PIdle -> h_arm h = Some ArmItem -> s_buf st = INew k cf cost v exp :: r ->
  proc_step c st h = StepOk st' o ->
  exists victims added, s_pc st' = PNewAfterAdd k cf v exp (internal_cost c cost) victims added /\
    (added = true -> aget k (sl_kc (s_slfu st')) = Some (internal_cost c cost)).
Proof.
  intros Hpc Harm Hbuf H. apply proc_step_rule in H. destruct H; try congruence.
  (* PrNew *) match goal with B : s_buf st = _ :: _ |- _ => rewrite Hbuf in B; injection B as <- <- <- <- <- <- end.
  sproj. do 2 eexists. split; [reflexivity|]. intros ->.
  match goal with PA : pol_add _ _ _ _ _ = _ |- _ => exact (proj1 (proj2 (add_admits_under_max _ _ _ _ _ _ _ _ _ PA))) end.
Qed.

(* C16: an Update item re-charges a charged key with internal_cost(cost) + external cost *)
Theorem update_item_recharges c st h k cost ext r old :
  s_pc st = PIdle -> h_arm h = Some ArmItem -> s_buf st = IUpdate k cost ext :: r ->
  aget k (sl_kc (s_slfu st)) = Some old ->
  exists st', proc_step c st h = StepOk st' (mk_out PtProcLoop [] RNone) /\
    aget k (sl_kc (s_slfu st')) = Some (internal_cost c cost + ext)%Z.
Proof.
  intros Hpc Harm Hbuf Hk. unfold proc_step. rewrite Hpc, Harm, Hbuf. cbn [proc_handle_item]. sproj.
  unfold sl_update. rewrite Hk. eexists. split; [reflexivity|]. rewrite emit_eq.
  apply aget_aset_same.
Qed.

(* C05, C16: a swept entry is un-charged, and the cost the policy had charged is kept for its on_evict *)
Theorem sweep_reports_charged_cost c st h k cf rest acc t charge :
  s_pc st = PTickKey k cf rest acc -> st_expiration (s_store st) k = Some t ->
  negb (t_is_zero t) && t_is_expired (s_now st) t = true ->
  aget k (sl_kc (s_slfu st)) = Some charge ->
  exists st', proc_step c st h = StepOk st' (mk_out PtProcTickAfterPolicy [] RNone) /\
    s_pc st' = PTickAfterPolicy k cf charge rest acc /\ aget k (sl_kc (s_slfu st')) = None /\
    sl_used (s_slfu st') = (sl_used (s_slfu st) - charge)%Z.
Proof.
  intros Hpc He Hx Hk. unfold proc_step. rewrite Hpc, He, Hx, Hk.
  unfold pol_remove, sl_remove. rewrite Hk. eexists. split; [reflexivity|]. rewrite emit_eq.
  split; [reflexivity|]. split; [apply aget_adel_same|reflexivity].
Qed.

(* C05: the sweeper never un-charges or removes an entry that has not expired (or has no TTL) when it
   looks at it, whatever the buckets list *)
Theorem sweep_skips_unexpired c st h k cf rest acc st' o :
  s_pc st = PTickKey k cf rest acc ->
  (forall t, st_expiration (s_store st) k = Some t -> negb (t_is_zero t) && t_is_expired (s_now st) t = false) ->
  proc_step c st h = StepOk st' o -> s_store st' = s_store st /\ s_slfu st' = s_slfu st.
Proof.
  intros Hpc Hun H. apply proc_step_rule in H. destruct H; try congruence.
  - (* PrTickExpired *) assert (E : k0 = k) by congruence. subst k0.
    match goal with X : _ && _ = true |- _ => rewrite (Hun _ ltac:(eassumption)) in X; discriminate X end.
  - (* PrTickSkip *) match goal with T : tick_rule _ _ _ _ _ _ _ |- _ => destruct T end; sproj; auto.
Qed.

(* C15: every lookup is recorded in this sum; that each flushed batch is accounted exactly once is in
   CacheMetrics.v *)
Definition gets_accounted (st : cstate) : N :=
  m_get (s_mets st) MKeepGets + m_get (s_mets st) MDropGets + N.of_nat (length (s_ring st)).

Theorem lookup_pushes_its_key c st a k cf :
  s_closed st = false ->
  exists st', start_op c st a (OGet k cf) = StepOk st' (mk_out PtGetAfterPush [] RNone) /\
    (s_ring st' = s_ring st ++ [k] \/
     (s_ring st' = [] /\ c_buffer_items c <= N.of_nat (length (s_ring st ++ [k])))).
Proof.
  intros Hc. cbn [start_op]. rewrite Hc. eexists. split; [reflexivity|].
  unfold ring_push. destruct (c_buffer_items c <=? N.of_nat (length (s_ring st ++ [k]))) eqn:E.
  - right. split; [|lia]. unfold policy_push. sproj. destruct (s_pol_closed st); [reflexivity|].
    destruct (s_ring st ++ [k]) eqn:L; [reflexivity|].
    match goal with |- context [if ?b then _ else _] => destruct b end;
      unfold emit; destruct (c_metrics c); sproj; reflexivity.
  - left. reflexivity.
Qed.

(* C19: two configurations that differ in the flavour only *)
Definition same_but_flavour (c1 c2 : cfg) : Prop :=
  c_ignore_internal c1 = c_ignore_internal c2 /\ c_item_size c1 = c_item_size c2 /\
  c_buf_cap c1 = c_buf_cap c2 /\ c_buffer_items c1 = c_buffer_items c2 /\ c_metrics c1 = c_metrics c2 /\
  c_validator c1 = c_validator c2 /\ c_coster c1 = c_coster c2.
