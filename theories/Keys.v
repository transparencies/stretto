(* Keys.v — model of TransparentHasher / TransparentKeyBuilder (src/lib.rs:364-507): how each
   supported integer key type is turned into the 64-bit index hash (`*self as u64`), and the
   builder's validation order.  Integers are Z; `bits` is the width of the type. *)
From StrettoModel Require Export Base.
Open Scope Z_scope.

Inductive ikind := KBool | KU8 | KU16 | KU32 | KU64 | KUsize | KI8 | KI16 | KI32 | KI64 | KIsize.

Definition is_signed (k : ikind) : bool :=
  match k with KI8 | KI16 | KI32 | KI64 | KIsize => true | _ => false end.

Definition bits (k : ikind) : Z :=
  match k with
  | KBool => 1 | KU8 | KI8 => 8 | KU16 | KI16 => 16 | KU32 | KI32 => 32
  | KU64 | KI64 | KUsize | KIsize => 64
  end.

(* the values of the type *)
Definition in_range (k : ikind) (x : Z) : Prop :=
  if is_signed k then - 2 ^ (bits k - 1) <= x < 2 ^ (bits k - 1) else 0 <= x < 2 ^ bits k.

(* `x as u64`: zero extension for unsigned types, sign extension (two's complement) for signed *)
Definition to_u64 (x : Z) : Z := x mod 2 ^ 64.

(* Hash::hash for an integer calls Hasher::write_<ty>(x), which stores `x as u64`; finish returns
   it; the conflict hash of TransparentKeyBuilder is 0 *)
Definition transparent_index (k : ikind) (x : Z) : Z := to_u64 x.
Definition transparent_conflict (k : ikind) (x : Z) : Z := 0.

Lemma bits_range k : 1 <= bits k <= 64.
Proof. destruct k; cbn; lia. Qed.

Lemma unsigned_range k x : is_signed k = false -> in_range k x -> 0 <= x < 2 ^ 64.
Proof.
  unfold in_range. intros ->.
  pose proof (bits_range k). pose proof (Z.pow_le_mono_r 2 (bits k) 64). lia.
Qed.

Lemma signed_range k x : is_signed k = true -> in_range k x -> - 2 ^ 63 <= x < 2 ^ 63.
Proof.
  unfold in_range. intros ->.
  pose proof (bits_range k). pose proof (Z.pow_le_mono_r 2 (bits k - 1) 63). lia.
Qed.

(* C18: unsigned keys map to themselves *)
Theorem transparent_unsigned_is_identity k x :
  is_signed k = false -> in_range k x -> transparent_index k x = x.
Proof. intros Hs H. apply Z.mod_small, (unsigned_range k x Hs H). Qed.

(* C18: signed keys map to their two's-complement image *)
Theorem transparent_signed_is_twos_complement k x :
  is_signed k = true -> in_range k x ->
  transparent_index k x = if x <? 0 then 2 ^ 64 + x else x.
Proof.
  intros Hs H. apply signed_range in H; [|assumption].
  unfold transparent_index, to_u64. destruct (Z.ltb_spec x 0).
  - rewrite <- (Z.mod_add x 1) by lia. rewrite Z.mod_small; lia.
  - apply Z.mod_small. lia.
Qed.

(* C18: distinct keys of one integer type never share an index, boundary and negative values included *)
Theorem transparent_injective k x y :
  in_range k x -> in_range k y -> transparent_index k x = transparent_index k y -> x = y.
Proof.
  intros Hx Hy. destruct (is_signed k) eqn:Hs.
  - rewrite !transparent_signed_is_twos_complement by assumption.
    apply signed_range in Hx, Hy; try assumption.
    destruct (Z.ltb_spec x 0), (Z.ltb_spec y 0); lia.
  - rewrite !transparent_unsigned_is_identity by assumption. auto.
Qed.

(* the builder's validation: src/cache/sync.rs:163-178, async.rs:185-199 *)
Inductive build_error := InvalidNumCounters | InvalidMaxCost | InvalidBufferSize.

Definition validate (num_counters : N) (max_cost : Z) (buffer_size : N) : option build_error :=
  if (num_counters =? 0)%N then Some InvalidNumCounters
  else if max_cost =? 0 then Some InvalidMaxCost
  else if (buffer_size =? 0)%N then Some InvalidBufferSize
  else None.

(* C20: zero num_counters / max_cost / buffer size are rejected with that error, in that order of
   precedence; everything else (negative max_cost included) is accepted *)
Theorem builder_validation nc mc bs :
  (nc = 0%N -> validate nc mc bs = Some InvalidNumCounters) /\
  (nc <> 0%N -> mc = 0 -> validate nc mc bs = Some InvalidMaxCost) /\
  (nc <> 0%N -> mc <> 0 -> bs = 0%N -> validate nc mc bs = Some InvalidBufferSize) /\
  (nc <> 0%N -> mc <> 0 -> bs <> 0%N -> validate nc mc bs = None).
Proof.
  unfold validate. repeat split; intros;
    destruct (N.eqb_spec nc 0); destruct (Z.eqb_spec mc 0); destruct (N.eqb_spec bs 0); congruence.
Qed.
