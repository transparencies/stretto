(* CacheNoDeadlock.v — C20, completing C10, C11 and C12: a client blocked inside wait(), clear() or
   remove(), or (sync flavour) in a stop rendezvous of close(), is never part of a deadlock: it can
   return or its partner can make a step.  With weak fairness of the processor's select! the calls
   return.  Also the worker's counterpart for C15: it can always apply the head batch. *)
From StrettoModel Require Import BaseProofs TinyLFUProofs Cache CacheSteps CacheInv CacheNoPanic CacheClearLive CacheBarrier CacheCloseLive CacheProgress.
Open Scope N_scope.

Lemma pc_idle_dec (p : ppc) : p = PIdle \/ p <> PIdle.
Proof. destruct p; first [left; reflexivity|right; discriminate]. Qed.

Lemma processor_can_take_a_clear c st sig r :
  s_pc st = PIdle -> s_clear_sigs st = sig :: r ->
  exists st' o, proc_step c st (arm_hint ArmClear) = StepOk st' o.
Proof.
  intros PC CS. unfold proc_step. rewrite PC. cbn [h_arm arm_hint]. rewrite CS.
  destruct (drain_buffer _) as [st1 cbs]. eexists; eexists; reflexivity.
Qed.

(* the continuation find_offer looks for *)
Definition offer (pol : bool) : ccont := if pol then KPolCloseStopOffered else KCloseStopOffered.

Lemma find_offer_In pol cl b : find_offer pol cl = Some b -> In (b, offer pol) cl.
Proof.
  induction cl as [|[a k] r IH]; [discriminate|].
  destruct pol, k; cbn [find_offer In]; first [intros [= ->]; left; reflexivity | right; apply IH; assumption].
Qed.

Lemma In_find_offer pol cl a : In (a, offer pol) cl -> exists b, find_offer pol cl = Some b.
Proof.
  induction cl as [|[a' k] r IH]; [intros []|].
  destruct pol, k; cbn [find_offer]; eauto; (intros [E|X]; [discriminate E|exact (IH X)]).
Qed.

(* the client map is built by aset only: every client has one entry *)
Definition ClientsND (st : cstate) : Prop := NoDup (akeys (s_clients st)).

Lemma reachable_ClientsND c mc t now st : reach c (cinit c mc t now) st -> ClientsND st.
Proof.
  apply (reach_ind_inv c (cinit c mc t now) ClientsND); [constructor|].
  unfold ClientsND. intros s l s' o ND H. step_cases H; first [exact ND | apply nodup_aset; exact ND].
Qed.

Lemma offer_found st pol a :
  ClientsND st -> client_of st a = offer pol ->
  exists b, find_offer pol (s_clients st) = Some b /\ client_of st b = offer pol.
Proof.
  unfold client_of. intros ND K. destruct (aget a (s_clients st)) as [k|] eqn:G; [subst k|destruct pol; discriminate K].
  destruct (In_find_offer pol _ a (aget_In_pair _ _ _ G)) as (b & F). exists b. split; [exact F|].
  rewrite (In_pair_aget _ _ _ ND (find_offer_In _ _ _ F)). reflexivity.
Qed.

Lemma processor_can_take_the_stop c st a :
  ClientsND st -> s_pc st = PIdle -> client_of st a = KCloseStopOffered ->
  exists st' o, proc_step c st (arm_hint ArmStop) = StepOk st' o.
Proof.
  intros ND PC K. destruct (offer_found st false a ND K) as (b & F & KB).
  unfold proc_step. rewrite PC. cbn [h_arm arm_hint]. destruct (0 <? s_stop_msgs st); [|rewrite F, KB; cbn [offer]];
    destruct (drain_buffer _) as [st2 cbs]; eexists; eexists; reflexivity.
Qed.

Lemma worker_can_take_the_stop c st a :
  ClientsND st -> s_wpc st = WIdle -> client_of st a = KPolCloseStopOffered ->
  exists st' o, worker_step c st (arm_hint ArmStop) = StepOk st' o.
Proof.
  intros ND W K. destruct (offer_found st true a ND K) as (b & F & KB).
  unfold worker_step. rewrite W. cbn [h_arm arm_hint]. destruct (0 <? s_pol_stop_msgs st); [|rewrite F, KB; cbn [offer]];
    eexists; eexists; reflexivity.
Qed.

Lemma live_processor_moves c mc t now st :
  reach c (cinit c mc t now) st -> N.of_nat (length (s_start st)) <= Consts.NUM_TO_KEEP ->
  s_pc st <> PExited ->
  (s_pc st = PIdle -> s_buf st <> [] \/ s_clear_sigs st <> [] \/ exists a, client_of st a = KCloseStopOffered) ->
  exists h st' o, cstep c st (LProc h) = StepOk st' o.
Proof.
  intros R LS PE WORK. destruct (pc_idle_dec (s_pc st)) as [P|P].
  - destruct (WORK P) as [B|[S|(a & K)]].
    + destruct (s_buf st) as [|it r] eqn:BB; [congruence|].
      destruct (reachable_processor_can_take_the_head_item c mc t now st it r R P BB) as (h & st' & o & _ & X & _).
      exists h, st', o. exact X.
    + destruct (s_clear_sigs st) as [|sig r] eqn:CS; [congruence|].
      destruct (processor_can_take_a_clear c st sig r P CS) as (st' & o & X). eexists; exists st', o. exact X.
    + destruct (processor_can_take_the_stop c st a (reachable_ClientsND c mc t now st R) P K) as (st' & o & X).
      eexists; exists st', o. exact X.
  - assert (SOst : SO st) by (apply (reach_ind_inv c (cinit c mc t now) SO); [apply SO_init|exact (SO_step c)|exact R]).
    destruct (processor_never_blocks_mid_item c st SOst P PE LS) as (st' & o & X).
    exists (mid_hint (s_pc st)), st', o. exact X.
Qed.

Definition blocked_call (k : ccont) : Prop :=
  (exists id, k = KWaitBlock id) \/ (exists id cl, k = KClearBlock id cl) \/ (exists key cf, k = KRemSend key cf).

(* C20, from wait_never_stuck, remove_never_stuck (C10) and clear_never_stuck (C11): the call can
   return, or its request is pending at a live processor, which therefore can move *)
Theorem blocked_call_has_a_moving_processor c mc t now st a :
  0 < c_buf_cap c ->
  reach c (cinit c mc t now) st ->
  N.of_nat (length (s_start st)) <= Consts.NUM_TO_KEEP ->
  blocked_call (client_of st a) ->
  (exists st' o, cstep c st (LClient a) = StepOk st' o) \/
  (exists h st' o, cstep c st (LProc h) = StepOk st' o).
Proof.
  intros CAP R LS BC.
  pose proof (live_processor_moves c mc t now st R LS) as PROC.
  destruct BC as [(id & K)|[(id & cl & K)|(key & cf & K)]].
  - destruct (wait_never_stuck c mc t now st a id R K) as [(st' & X)|(IN & PE)]; [left; eexists; eexists; exact X|right].
    apply PROC; [exact PE|]. intros _. left. intros E. rewrite E in IN. exact IN.
  - destruct (clear_never_stuck c mc t now st a id cl R K) as [X|[(IN & PE)|CL]]; [left; exact X|right..].
    + apply PROC; [exact PE|]. intros _. right. left. intros E. rewrite E in IN. exact IN.
    + apply PROC; [|intros P]; destruct CL as [E|[E|E]]; congruence.
  - destruct (remove_never_stuck c st a key cf K) as [(st' & X)|(PE & FULL)]; [left; eexists; eexists; exact X|right].
    apply PROC; [exact PE|]. intros _. left. intros E. rewrite E in FULL. cbn [length] in FULL. lia.
Qed.

(* C12, sync flavour: a closer waiting in a stop rendezvous has a partner that can move — the
   processor (it takes the stop at its loop head, or goes on with what it is doing), resp. the
   policy worker *)
Theorem blocked_close_has_a_moving_partner c mc t now st a :
  c_async c = false ->
  reach c (cinit c mc t now) st ->
  N.of_nat (length (s_start st)) <= Consts.NUM_TO_KEEP ->
  (client_of st a = KCloseStopOffered -> exists h st' o, cstep c st (LProc h) = StepOk st' o) /\
  (client_of st a = KPolCloseStopOffered -> exists h st' o, cstep c st (LWorker h) = StepOk st' o).
Proof.
  intros SY R LS.
  destruct (sync_close_offer_has_a_live_partner c mc t now st a SY R) as (L1 & L2).
  split; intros K.
  - apply (live_processor_moves c mc t now st R LS (L1 K)). intros _. right. right. exists a. exact K.
  - destruct (worker_can_take_the_stop c st a (reachable_ClientsND c mc t now st R) (L2 K) K) as (st' & o & X).
    eexists; exists st', o. exact X.
Qed.

(* C15: the policy worker at its loop head with a batch queued can always apply the head batch (no
   panic: every queued key is a u64, the estimator is well-formed) *)
Theorem worker_can_take_the_head_batch c st b r :
  NP st -> s_wpc st = WIdle -> s_pqueue st = b :: r ->
  exists st' o, worker_step c st (arm_hint ArmItem) = StepOk st' o.
Proof.
  intros (TW & _ & _ & _ & _ & _ & QH) W Q. unfold worker_step. rewrite W. cbn [h_arm arm_hint]. rewrite Q in *.
  destruct (increments_total _ _ TW (Forall_inv QH)) as (t' & -> & _). eauto.
Qed.
