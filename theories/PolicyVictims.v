(* PolicyVictims.v — C16: the cost the policy reports for an eviction victim is the cost that key was
   charged when the add began (charges do not change during an add, they are only removed). *)
From StrettoModel Require Import BaseProofs Policy PolicyProofs.
Open Scope Z_scope.

Definition pairs_ok (s0 : slfu) (l : list pair) : Prop := forall k c, In (k, c) l -> aget k (sl_kc s0) = Some c.

Theorem victims_report_their_charge est oracle s k cost s' V a lg m :
  WF s -> (forall x, est x < I64MAX) -> pol_add est oracle s k cost = AddDone s' (Some V) a lg m ->
  forall kv c, In (kv, c) V -> aget kv (sl_kc s) = Some c.
Proof.
  intros W Hest. destruct (pol_addP est oracle s k cost) as [| | |_ _ _]; try discriminate. intros H.
  (* the policy only shrinks, so sample and victims keep holding charges of s *)
  set (Inv := fun s1 sample victims (_ : list iter_log) (_ : list mevent) =>
                shrunk s s1 /\ pairs_ok s sample /\ pairs_ok s victims).
  assert (Init : Inv s [] [] [] []) by (split; [apply shrunk_refl|split; intros ? ? []]).
  apply (evict_loop_rule est (est k) k cost Inv) with (oracle := oracle) in Init.
  - destruct Init as (s1 & ? & victims1 & ? & ? & (_ & _ & OKv) & X). rewrite H in X.
    inversion X; subst; exact OKv.
  - intros s1 sample victims ? ? e (Sh & OKs & OKv) (_ & (_ & FM) & LF) _ NE.
    assert (OKsmp : pairs_ok s (il_sample e)).
    { intros k0 c0 G. destruct (legal_fill_elems _ _ _ _ LF G) as [G'|G']; [auto|].
      apply (proj1 (proj2 Sh)), In_pair_aget; [apply (shrunk_WF _ _ Sh W)|exact G']. }
    split; [apply shrunk_remove, Sh|]. split.
    + intros k0 c0 G. apply OKsmp. eapply swap_remove_In. exact G.
    + intros k0 c0 G. apply in_app_or in G. destruct G as [G|[[= <- <-]|[]]]; [auto|].
      apply OKsmp. exact (find_min0_in est _ _ _ _ _ NE Hest FM).
Qed.
