(* CacheCharge.v — property C17, the charge-conservation laws: with metrics on,
   cost_added - cost_evicted equals the charged total and keys_added - keys_evicted the number of
   charged entries (counters are wrapping u64s: equalities modulo 2^64).  [ChargeInv] is kept by
   every step of every actor taken from a state that meets [DeltaOk]; [DeltaOk] is not an invariant
   but a hypothesis on every state passed ([reach_d]). *)
From StrettoModel Require Import BaseProofs PolicyProofs Cache CacheSteps CacheMetrics.
Open Scope Z_scope.

(* 2^64 in Z ([two64] is the same number in N) *)
Definition M : Z := 18446744073709551616.
Definition eqm (a b : Z) : Prop := (a - b) mod M = 0.

Lemma eqm_refl a : eqm a a.
Proof. unfold eqm. rewrite Z.sub_diag. reflexivity. Qed.
Lemma eqm_intro a b q : a - b = q * M -> eqm a b.
Proof. intros H. unfold eqm. rewrite H. apply Z.mod_mul. discriminate. Qed.
Lemma eqm_elim a b : eqm a b -> exists q, a - b = q * M.
Proof. intros H. apply Z.mod_divide in H; [exact H|discriminate]. Qed.
Lemma eqm_sym a b : eqm a b -> eqm b a.
Proof. intros H. apply eqm_elim in H. destruct H as [q H]. apply (eqm_intro _ _ (- q)). lia. Qed.
Lemma eqm_add a b c d : eqm a b -> eqm c d -> eqm (a + c) (b + d).
Proof. intros H1 H2. apply eqm_elim in H1, H2. destruct H1 as [q1 H1], H2 as [q2 H2]. apply (eqm_intro _ _ (q1 + q2)). lia. Qed.

Lemma eqm_diff a b c d : eqm a b -> c - d = a - b -> eqm c d.
Proof. unfold eqm. intros H ->. exact H. Qed.
Lemma eqm_eq a b : a = b -> eqm a b.
Proof. intros ->. apply eqm_refl. Qed.
Lemma eqm_sub a b c d : eqm a b -> eqm c d -> eqm (a - c) (b - d).
Proof. intros H1 H2. apply (eqm_diff _ _ _ _ (eqm_add _ _ _ _ H1 (eqm_sym _ _ H2))). lia. Qed.

Lemma eqm_mod z : eqm (z mod M) z.
Proof. unfold eqm. rewrite Zminus_mod_idemp_l, Z.sub_diag. reflexivity. Qed.

Lemma eqm_wrap64 n : eqm (Z.of_N (wrap64 n)) (Z.of_N n).
Proof. unfold wrap64. rewrite N2Z.inj_mod. apply eqm_mod. Qed.

Lemma eqm_u64_of_i64 z : eqm (Z.of_N (u64_of_i64 z)) z.
Proof. unfold u64_of_i64. rewrite Z2N.id by (apply Z.mod_pos_bound; reflexivity). apply eqm_mod. Qed.

Definition ev_cost (e : mevent) : Z :=
  match e with (MCostAdd, d) => Z.of_N d | (MCostEvict, d) => - Z.of_N d | _ => 0 end.
Definition ev_keys (e : mevent) : Z :=
  match e with (MKeyAdd, d) => Z.of_N d | (MKeyEvict, d) => - Z.of_N d | _ => 0 end.

(* what the counters say is charged: cost added minus cost evicted, keys added minus keys evicted *)
Definition cnet (m : metrics) : Z := Z.of_N (m_get m MCostAdd) - Z.of_N (m_get m MCostEvict).
Definition knet (m : metrics) : Z := Z.of_N (m_get m MKeyAdd) - Z.of_N (m_get m MKeyEvict).

Lemma m_get_add_eqm m t d t' : length m = 11%nat ->
  eqm (Z.of_N (m_get (m_add m (t, d)) t')) (Z.of_N (m_get m t') + (if (mtype_idx t =? mtype_idx t')%nat then Z.of_N d else 0)).
Proof.
  intros L. destruct (Nat.eqb_spec (mtype_idx t) (mtype_idx t')) as [E|E].
  - apply mtype_idx_inj in E. subst t'. rewrite m_get_add_same by exact L.
    apply (eqm_diff _ _ _ _ (eqm_wrap64 (m_get m t + d))). lia.
  - rewrite m_get_add_other by congruence. apply eqm_eq. lia.
Qed.

Lemma cnet_add m e : length m = 11%nat -> eqm (cnet (m_add m e)) (cnet m + ev_cost e).
Proof.
  intros L. destruct e as [t d]. unfold cnet.
  apply (eqm_diff _ _ _ _ (eqm_sub _ _ _ _ (m_get_add_eqm m t d MCostAdd L) (m_get_add_eqm m t d MCostEvict L))).
  destruct t; cbn [ev_cost mtype_idx Nat.eqb]; lia.
Qed.

Lemma knet_add m e : length m = 11%nat -> eqm (knet (m_add m e)) (knet m + ev_keys e).
Proof.
  intros L. destruct e as [t d]. unfold knet.
  apply (eqm_diff _ _ _ _ (eqm_sub _ _ _ _ (m_get_add_eqm m t d MKeyAdd L) (m_get_add_eqm m t d MKeyEvict L))).
  destruct t; cbn [ev_keys mtype_idx Nat.eqb]; lia.
Qed.

Lemma net_adds (net : metrics -> Z) f :
  (forall m e, length m = 11%nat -> eqm (net (m_add m e)) (net m + f e)) ->
  forall evs m, length m = 11%nat -> eqm (net (m_adds m evs)) (net m + sumZ (map f evs)).
Proof.
  intros A. induction evs as [|e evs IH]; intros m L; cbn [m_adds fold_left sumZ map]; [apply eqm_eq; lia|].
  assert (L' : length (m_add m e) = 11%nat) by (rewrite length_m_add; exact L).
  apply (eqm_diff _ _ _ _ (eqm_add _ _ _ _ (IH _ L') (A m e L))). unfold m_adds. lia.
Qed.

Definition klen (s : slfu) : Z := Z.of_nat (length (sl_kc s)).

(* a policy operation that takes [s] to [s'] and emits [evs] accounts for what it does to the
   charges; [d] is the key it charges without counting it (KeyAdd comes later, from the processor) *)
Definition charged (s s' : slfu) (evs : list mevent) (d : Z) : Prop :=
  eqm (sl_used s' - sl_used s) (sumZ (map ev_cost evs)) /\ klen s' = klen s + sumZ (map ev_keys evs) + d.

Lemma charged_same s evs d : sumZ (map ev_cost evs) = 0 -> sumZ (map ev_keys evs) + d = 0 -> charged s s evs d.
Proof. intros C K. unfold charged. split; [apply eqm_eq|]; lia. Qed.

Lemma pol_remove_net s k : WF s -> charged s (fst (pol_remove s k)) (snd (pol_remove s k)) 0.
Proof.
  intros (_ & ND). unfold pol_remove, sl_remove. destruct (aget k (sl_kc s)) as [c0|] eqn:G;
    split; cbn [fst snd sl_used sl_kc sumZ map ev_cost ev_keys].
  - apply (eqm_diff _ _ _ _ (eqm_u64_of_i64 c0)). lia.
  - unfold klen. cbn [sl_kc]. pose proof (length_adel_in k (sl_kc s) ND (aget_in _ _ _ G)). lia.
  - apply eqm_eq. lia.
  - lia.
Qed.

(* [update_delta] reports a decrease from p to c as 2^64 - (p - c), computed in N: that is c - p
   modulo 2^64 as long as the subtraction does not truncate *)
Definition delta_ok (p c : Z) : Prop := p - c <= M.

Lemma update_delta_net p c : delta_ok p c -> eqm (sumZ (map ev_cost (update_delta p c))) (c - p) /\ sumZ (map ev_keys (update_delta p c)) = 0.
Proof.
  unfold update_delta, delta_ok. intros D. destruct (p <? c) eqn:E1; [|destruct (c <? p) eqn:E2]; cbn [sumZ map ev_cost ev_keys];
    (split; [|reflexivity]).
  - rewrite Z2N.id by lia. apply eqm_eq. lia.
  - unfold two64. apply (eqm_intro _ _ 1). unfold M in *. lia.
  - apply eqm_eq. lia.
Qed.

Lemma sl_update_net s k c :
  WF s -> (forall p, aget k (sl_kc s) = Some p -> delta_ok p c) ->
  charged s (fst (fst (sl_update s k c))) (snd (sl_update s k c)) 0.
Proof.
  intros (_ & ND) D. unfold sl_update. destruct (aget k (sl_kc s)) as [p|] eqn:G; cbn [fst snd].
  - destruct (update_delta_net p c (D p eq_refl)) as (E & K). split; cbn [sl_used sl_kc sumZ map ev_cost ev_keys]; rewrite ?K.
    + apply (eqm_diff _ _ _ _ (eqm_sym _ _ E)). lia.
    + unfold klen, aset. cbn [sl_kc length]. pose proof (length_adel_in k (sl_kc s) ND (aget_in _ _ _ G)). lia.
  - apply charged_same; reflexivity.
Qed.

Lemma sl_increment_net s k c :
  aget k (sl_kc s) = None -> charged s (sl_increment s k c) [(MCostAdd, u64_of_i64 c)] 1.
Proof.
  intros G. unfold charged, sl_increment, klen, aset. cbn [sl_used sl_kc length sumZ map ev_cost ev_keys].
  rewrite (adel_absent _ _ G). split; [|lia].
  apply (eqm_diff _ _ _ _ (eqm_sym _ _ (eqm_u64_of_i64 c))). lia.
Qed.

Lemma charged_app s s1 s2 ev ev' d d' :
  charged s s1 ev d -> charged s1 s2 ev' d' -> charged s s2 (ev ++ ev') (d + d').
Proof.
  intros (U1 & K1) (U2 & K2). unfold charged. rewrite !map_app, !sumZ_app. split; [|lia].
  apply (eqm_diff _ _ _ _ (eqm_add _ _ _ _ U1 U2)). lia.
Qed.

Lemma evict_loop_net est ih k cost oracle s sample victims log mets s' v a lg m :
  WF s -> aget k (sl_kc s) = None ->
  evict_loop est ih k cost oracle s sample victims log mets = AddDone s' v a lg m ->
  exists more, m = mets ++ more /\ charged s s' more (if a then 1 else 0).
Proof.
  intros W G H. apply (evict_loop_state (fun s1 ev => charged s s1 ev 0)) in H.
  - destruct H as (s1 & ev & Sh & C & _ & -> & ->). eexists. split; [reflexivity|].
    destruct a; [exact (charged_app _ _ _ _ _ 0 1 C (sl_increment_net _ _ _ (shrunk_absent _ _ _ Sh G)))|].
    apply (charged_app _ _ _ _ _ 0 0 C), charged_same; reflexivity.
  - apply charged_same; reflexivity.
  - intros s1 ev x Sh C. exact (charged_app _ _ _ _ _ 0 0 C (pol_remove_net s1 x (shrunk_WF _ _ Sh W))).
Qed.

Lemma pol_add_net est oracle s k cost s' v a lg m :
  WF s -> (forall p, aget k (sl_kc s) = Some p -> delta_ok p cost) ->
  pol_add est oracle s k cost = AddDone s' v a lg m -> charged s s' m (if a then 1 else 0).
Proof.
  intros W D. destruct (pol_addP est oracle s k cost) as [_|p _ G|_ G _|_ G _].
  - (* AddOversize *) intros [= <- _ <- _ <-]. apply charged_same; reflexivity.
  - (* AddUpdate *) intros [= <- _ <- _ <-]. pose proof (sl_update_net s k cost W D) as X.
    rewrite (sl_update_charged _ _ _ _ G) in X. exact X.
  - (* AddRoom *) intros [= <- _ <- _ <-]. apply sl_increment_net, G.
  - (* AddLoop *) intros H. destruct (evict_loop_net _ _ _ _ _ _ _ _ _ _ _ _ _ _ _ W G H) as (more & -> & C). exact C.
Qed.

(* [pending]: the key that policy.add has charged and the processor has not yet counted by KeyAdd.
   [pcl] ("pending, or clear"): None between the emptying of the policy by clear() and its reset
   of the counters, where [ChargeInv] suspends the two laws and asks for an empty policy instead. *)
Definition pending (p : ppc) : Z := match p with PNewAfterAdd _ _ _ _ _ _ true => 1 | _ => 0 end.
Definition pcl (p : ppc) : option Z :=
  match p with PClearAfterPolicy _ | PClearAfterStore _ => None | _ => Some (pending p) end.

Definition ChargeInv (st : cstate) : Prop :=
  MW st /\ WF (s_slfu st) /\
  match pcl (s_pc st) with
  | None => sl_used (s_slfu st) = 0 /\ sl_kc (s_slfu st) = []
  | Some pd => eqm (cnet (s_mets st)) (sl_used (s_slfu st)) /\ eqm (knet (s_mets st) + pd) (klen (s_slfu st))
  end.

(* no single cost decrease exceeds 2^64 (it cannot, for i64 costs whose differences do not overflow) *)
Definition DeltaOk (c : cfg) (st : cstate) : Prop :=
  forall it r, s_pc st = PIdle -> s_buf st = it :: r ->
  match it with
  | INew k _ cost _ _ => forall p, aget k (sl_kc (s_slfu st)) = Some p -> delta_ok p (internal_cost c cost)
  | IUpdate k cost ext => forall p, aget k (sl_kc (s_slfu st)) = Some p -> delta_ok p (internal_cost c cost + ext)
  | _ => True
  end.

Lemma ChargeInv_frame st st' evs :
  ChargeInv st -> s_mets st' = m_adds (s_mets st) evs -> sumZ (map ev_cost evs) = 0 -> sumZ (map ev_keys evs) = 0 ->
  WF (s_slfu st') -> sl_used (s_slfu st') = sl_used (s_slfu st) -> sl_kc (s_slfu st') = sl_kc (s_slfu st) ->
  pcl (s_pc st') = pcl (s_pc st) -> ChargeInv st'.
Proof.
  intros (W & F & I) Em C K F' Eu Ek Ep. unfold ChargeInv, MW, klen in *. rewrite Em, Eu, Ek, Ep, length_m_adds.
  split; [exact W|]. split; [exact F'|]. destruct (pcl (s_pc st)) as [pd|]; [|exact I]. destruct I as (I1 & I2).
  pose proof (net_adds cnet ev_cost cnet_add evs (s_mets st) W) as X. pose proof (net_adds knet ev_keys knet_add evs (s_mets st) W) as Y.
  rewrite C in X. rewrite K in Y. split.
  - apply (eqm_diff _ _ _ _ (eqm_add _ _ _ _ X I1)). lia.
  - apply (eqm_diff _ _ _ _ (eqm_add _ _ _ _ Y I2)). lia.
Qed.

Lemma ChargeInv_events st st' evs pd d :
  ChargeInv st -> pcl (s_pc st) = Some pd -> s_mets st' = m_adds (s_mets st) evs ->
  WF (s_slfu st') -> charged (s_slfu st) (s_slfu st') evs d -> pcl (s_pc st') = Some (pd + d) -> ChargeInv st'.
Proof.
  intros (W & F & I) P Em F' (U & K) P'. unfold ChargeInv, MW. rewrite Em, P', length_m_adds. rewrite P in I.
  split; [exact W|]. split; [exact F'|]. destruct I as (I1 & I2).
  pose proof (net_adds cnet ev_cost cnet_add evs (s_mets st) W) as X. pose proof (net_adds knet ev_keys knet_add evs (s_mets st) W) as Y. split.
  - apply (eqm_diff _ _ _ _ (eqm_sub _ _ _ _ (eqm_add _ _ _ _ X I1) U)). lia.
  - apply (eqm_diff _ _ _ _ (eqm_add _ _ _ _ Y I2)). lia.
Qed.

Theorem ChargeInv_step c st l st' o :
  c_metrics c = true -> ChargeInv st -> DeltaOk c st -> cstep c st l = StepOk st' o -> ChargeInv st'.
Proof.
  intros Hm CI DO H. pose proof CI as (W & WFs & I).
  step_cases H; unfold emit_mets; rewrite ?Hm.
  all: try solve [apply (ChargeInv_frame st _ [] CI); sproj; known; auto using WF_set_max].
  (* ClInsDropped, ClGetMiss, ClGetMutHit, ClGetHit *)
  all: try solve [eapply (ChargeInv_frame st _ _ CI); sproj; known; [reflexivity|auto..]].
  (* OpGet, OpGetMut *)
  1-2: destruct (ring_push_mets c st k Hm) as (evs & E & G);
    apply (ChargeInv_frame st _ evs CI); sproj; known; auto;
    destruct G as [->|[(n & ->)|(n & ->)]]; reflexivity.
  (* PrNew, PrUpdate: given [DeltaOk] *)
  1-2: pose proof (DO _ _ ltac:(eassumption) ltac:(eassumption)) as D; cbn beta iota in D;
    eapply (ChargeInv_events st _ _ 0 _ CI); sproj; known;
    eauto using pol_add_WF_only, WF_update, pol_add_net, sl_update_net.
  (* PrDelete, PrTickExpired *)
  1, 5: eapply (ChargeInv_events st _ _ 0 _ CI); sproj; known; eauto using WF_pol_remove, pol_remove_net.
  - (* PrAdmit: KeyAdd *)
    apply (ChargeInv_events st _ [(MKeyAdd, 1%N)] 1 (-1) CI); sproj; known; auto.
    apply charged_same; reflexivity.
  - (* PrClearPolicy *)
    split; [exact W|]. split; [apply WF_clear|]. split; reflexivity.
  - (* PrClearAck: the counters restart *)
    revert I. known. intros (I1 & I2).
    unfold ChargeInv, MW, klen. sproj. rewrite I1, I2. split; [reflexivity|]. split; [exact WFs|].
    split; apply eqm_eq; reflexivity.
Qed.

Inductive reach_d (c : cfg) (st0 : cstate) : cstate -> Prop :=
| rd_init : reach_d c st0 st0
| rd_step st l st' o : reach_d c st0 st -> DeltaOk c st -> cstep c st l = StepOk st' o -> reach_d c st0 st'.

Lemma ChargeInv_init c mc t now : ChargeInv (cinit c mc t now).
Proof.
  unfold ChargeInv, MW, cinit, klen; sproj. split; [reflexivity|]. split; [apply WF_new|].
  split; apply eqm_eq; reflexivity.
Qed.

(* C17: the two laws hold in every state that is reached through states meeting [DeltaOk] and in
   which the processor is between items (in particular at every quiescent point) *)
Theorem charge_conservation c mc t now st :
  c_metrics c = true -> reach_d c (cinit c mc t now) st -> s_pc st = PIdle ->
  eqm (Z.of_N (m_get (s_mets st) MCostAdd) - Z.of_N (m_get (s_mets st) MCostEvict)) (sl_used (s_slfu st)) /\
  eqm (Z.of_N (m_get (s_mets st) MKeyAdd) - Z.of_N (m_get (s_mets st) MKeyEvict)) (Z.of_nat (length (sl_kc (s_slfu st)))).
Proof.
  intros Hm R P. assert (CI : ChargeInv st).
  { clear P. induction R as [|st l st' o R IH D S]; [apply ChargeInv_init|]. eapply ChargeInv_step; [exact Hm|apply IH|exact D|exact S]. }
  destruct CI as (_ & _ & I). rewrite P in I. destruct I as (I1 & I2). split; [exact I1|].
  unfold knet, klen in I2. rewrite Z.add_0_r in I2. exact I2.
Qed.
