(* CacheMetrics.v — properties C15 and C17.  [step_metrics] says, for every step, which events it may
   add to the eleven counters: exactly which for a client's continuation, at most one
   KeepGets/DropGets for a lookup's start, only policy events and KeyAdd for the processor.  The
   conservation laws of the get ring (C15) and of hits, misses and dropped sets (C17) follow.
   [MW st] and [hist_ok (s_hist st)] are hypotheses of these theorems: both hold of [cinit] and are
   kept by every step, but no theorem of this file says so for reachable states ([MW] is a conjunct
   of [ChargeInv], CacheCharge.v). *)
From StrettoModel Require Import BaseProofs PolicyProofs TinyLFUProofs Cache CacheSteps CacheLocal.
Open Scope N_scope.

Lemma mtype_idx_inj t t' : mtype_idx t = mtype_idx t' -> t = t'.
Proof. destruct t, t'; cbn; intros H; try reflexivity; discriminate H. Qed.

Lemma mtype_idx_lt t : (mtype_idx t < 11)%nat.
Proof. destruct t; cbn; lia. Qed.

Lemma length_m_add m e : length (m_add m e) = length m.
Proof. destruct e as [t d]. apply length_list_set. Qed.

Lemma length_m_adds evs : forall m, length (m_adds m evs) = length m.
Proof. induction evs as [|e evs IH]; intros m; cbn [m_adds fold_left]; [reflexivity|]. unfold m_adds in IH. rewrite IH. apply length_m_add. Qed.

Lemma m_get_add_same m t d : length m = 11%nat -> m_get (m_add m (t, d)) t = wrap64 (m_get m t + d).
Proof. intros L. unfold m_add, m_get at 1. apply nth_error_nth, nth_error_list_set_same. rewrite L. apply mtype_idx_lt. Qed.

Lemma m_get_add_other m t d t' : t <> t' -> m_get (m_add m (t, d)) t' = m_get m t'.
Proof.
  intros H. unfold m_add, m_get. rewrite <- !nth_default_eq. unfold nth_default.
  rewrite nth_error_list_set_other; [reflexivity|]. intros E. apply H, mtype_idx_inj, E.
Qed.

Lemma m_get_adds_other evs t : forall m, Forall (fun e => fst e <> t) evs -> m_get (m_adds m evs) t = m_get m t.
Proof.
  induction evs as [|[t0 d] evs IH]; intros m F; cbn [m_adds fold_left]; [reflexivity|].
  inversion F as [|? ? H1 H2]; subst. unfold m_adds in IH. rewrite IH by assumption. apply m_get_add_other. exact H1.
Qed.

Lemma m_adds_nil m : m_adds m [] = m.
Proof. reflexivity. Qed.

(* MW ("metrics width"): the counter array has its eleven slots, so that [m_get] after [m_add] reads
   the slot written ([m_get_add_same]) *)
Definition MW (st : cstate) : Prop := length (s_mets st) = 11%nat.

Definition pol_ev (e : mevent) : Prop :=
  match fst e with MCostAdd | MKeyUpdate | MCostEvict | MKeyEvict | MRejectSets => True | _ => False end.

Lemma update_delta_ev p c : Forall pol_ev (update_delta p c).
Proof. unfold update_delta. destruct (p <? c)%Z; [repeat constructor|]. destruct (c <? p)%Z; repeat constructor. Qed.

Lemma sl_update_ev s k c : Forall pol_ev (snd (sl_update s k c)).
Proof.
  unfold sl_update. destruct (aget k (sl_kc s)); cbn [snd]; [|constructor].
  constructor; [exact I|apply update_delta_ev].
Qed.

Lemma pol_remove_ev s k : Forall pol_ev (snd (pol_remove s k)).
Proof. unfold pol_remove. destruct (sl_remove s k) as [s1 [c|]]; repeat constructor. Qed.

Lemma evict_loop_ev est ih k cost oracle s sample victims log mets s' v a lg m :
  Forall pol_ev mets -> evict_loop est ih k cost oracle s sample victims log mets = AddDone s' v a lg m -> Forall pol_ev m.
Proof.
  intros F H. apply (evict_loop_state (fun _ ev => Forall pol_ev ev)) in H;
    [|constructor|intros; apply Forall_app; auto using pol_remove_ev].
  destruct H as (_ & ev & _ & Fev & _ & _ & ->). repeat (apply Forall_app; split); trivial.
  destruct a; repeat constructor.
Qed.

(* C17: the policy's rejections are counted exactly: one RejectSets per add refused inside the loop *)
Lemma evict_loop_rejects est ih k cost : forall oracle s sample victims log mets s' v a lg m,
  evict_loop est ih k cost oracle s sample victims log mets = AddDone s' v a lg m ->
  exists more, m = mets ++ more /\
    (a = false -> exists ev, more = ev ++ [(MRejectSets, 1)] /\ Forall (fun e => fst e <> MRejectSets) ev) /\
    (a = true -> Forall (fun e => fst e <> MRejectSets) more).
Proof.
  intros oracle s sample victims log mets s' v a lg m H.
  apply (evict_loop_state (fun _ ev => Forall (fun e => fst e <> MRejectSets) ev)) in H; [|constructor|].
  - destruct H as (_ & ev & _ & F & _ & _ & ->). eexists. split; [reflexivity|].
    split; intros ->; [eauto|]. apply Forall_app. split; [exact F|repeat constructor; discriminate].
  - intros s1 ev x _ F. apply Forall_app. split; [exact F|].
    unfold pol_remove. destruct (sl_remove s1 x) as [s2 [c|]]; repeat constructor; discriminate.
Qed.

Lemma pol_add_ev est oracle s k cost s' v a lg m : pol_add est oracle s k cost = AddDone s' v a lg m -> Forall pol_ev m.
Proof.
  destruct (pol_addP est oracle s k cost); try (intros [= _ _ _ _ <-]; repeat constructor).
  - apply update_delta_ev.
  - apply evict_loop_ev. constructor.
Qed.

Definition push_room (c : cfg) (st : cstate) : bool :=
  match s_wpc st with
  | WExited => false
  | WIdle => match pol_queue_cap c with None => true | Some cap => N.of_nat (length (s_pqueue st)) <? cap end
  end.

(* C15, the get-ring flush.  RingStripe::push, exhaustively: the key joins the pending batch; when
   the batch reaches buffer_items it is handed to the policy and the stripe restarts empty; the
   policy either queues the whole batch for its worker (KeepGets += its length) or — queue full,
   worker gone — drops it (DropGets += its length), or — policy closed — drops it unaccounted. *)
Theorem ring_push_cases c st k :
  let data := s_ring st ++ [k] in
  let n := N.of_nat (length data) in
  (n < c_buffer_items c /\ ring_push c st k = upd_ring st data) \/
  (c_buffer_items c <= n /\ s_pol_closed st = true /\ ring_push c st k = upd_ring st []) \/
  (c_buffer_items c <= n /\ s_pol_closed st = false /\ push_room c st = true /\
     ring_push c st k = emit c (upd_pqueue (upd_ring st []) (s_pqueue st ++ [data])) [(MKeepGets, n)]) \/
  (c_buffer_items c <= n /\ s_pol_closed st = false /\ push_room c st = false /\
     ring_push c st k = emit c (upd_ring st []) [(MDropGets, n)]).
Proof.
  intros data n. unfold ring_push. fold data. fold n. destruct (c_buffer_items c <=? n) eqn:E.
  - right. unfold policy_push. sproj. destruct (s_pol_closed st) eqn:PC.
    + left. split; [lia|]. auto.
    + right. assert (D : data <> []) by (unfold data; destruct (s_ring st); discriminate).
      destruct data as [|d0 dr] eqn:DE; [congruence|]. fold (push_room c st).
      destruct (push_room c st); [left|right]; (split; [lia|]; split; [reflexivity|]; split; reflexivity).
  - left. split; [lia|reflexivity].
Qed.

Lemma ring_push_mets c st k : c_metrics c = true ->
  exists evs, s_mets (ring_push c st k) = m_adds (s_mets st) evs /\
    (evs = [] \/ (exists n, evs = [(MKeepGets, n)]) \/ (exists n, evs = [(MDropGets, n)])).
Proof.
  intros Hm.
  destruct (ring_push_cases c st k) as [(_ & E)|[(_ & _ & E)|[(_ & _ & _ & E)|(_ & _ & _ & E)]]];
    rewrite E, ?emit_eq; unfold emit_mets; rewrite ?Hm; sproj.
  - exists []. auto.
  - exists []. auto.
  - eexists. split; [reflexivity|eauto].
  - eexists. split; [reflexivity|eauto].
Qed.

Definition proc_ev (e : mevent) : Prop := pol_ev e \/ e = (MKeyAdd, 1).

Definition is_lookup (op : cop) : bool := match op with OGet _ _ | OGetMutWrite _ _ _ => true | _ => false end.

Definition evs_spec (c : cfg) (st : cstate) (l : label) (o : out) (evs : list mevent) : Prop :=
  match l with
  | LOp a op =>
      if is_lookup op && negb (s_closed st) then
        evs = [] \/ (exists n, evs = [(MKeepGets, n)]) \/ (exists n, evs = [(MDropGets, n)])
      else evs = []
  | LClient a =>
      match client_of st a with
      | KInsSend it _ =>
          (evs = [] /\ o_res o = RBool true) \/
          (evs = [(MDropSets, 1)] /\ o_res o = RBool false /\ is_update it = false /\ buf_send c st it = None)
      | KGetStore k cf w =>
          evs = [(match st_get (s_now st) (s_store st) k cf with Some _ => MHit | None => MMiss end, 1)]
      | _ => evs = []
      end
  | LProc _ => Forall proc_ev evs
  | _ => evs = []
  end.

Lemma pol_proc_ev evs : Forall pol_ev evs -> Forall proc_ev evs.
Proof. apply Forall_impl. intros e He. left. exact He. Qed.

Lemma evs_spec_nil c st l o :
  match l with
  | LClient a => match client_of st a with
                 | KInsSend _ _ => o_res o = RBool true
                 | KGetStore _ _ _ => False
                 | _ => True
                 end
  | _ => True
  end -> evs_spec c st l o [].
Proof.
  destruct l as [a op|a|h|h|dt|]; cbn [evs_spec]; try reflexivity.
  - intros _. destruct (is_lookup op && negb (s_closed st)); auto.
  - destruct (client_of st a); intros X; auto; contradiction.
  - constructor.
Qed.

Theorem step_metrics c st l st' o :
  c_metrics c = true -> cstep c st l = StepOk st' o ->
  (exists evs, s_mets st' = m_adds (s_mets st) evs /\ evs_spec c st l o evs) \/
  (exists sig h, l = LProc h /\ s_pc st = PClearAfterStore sig /\ s_mets st' = metrics_zero).
Proof.
  intros Hm H. step_cases H; unfold emit_mets; rewrite ?Hm.
  all: try (left; exists []; split; [reflexivity|]; apply evs_spec_nil; known; first [exact I|reflexivity]).
  (* OpGet, OpGetMut *)
  1-2: destruct (ring_push_mets c st k Hm) as (evs & E & G); left; exists evs; split; [exact E|];
    cbn [evs_spec is_lookup andb]; destruct (s_closed st); [congruence|exact G].
  all: try (left; eexists; split; [reflexivity|]).
  (* ClGetMiss, ClGetMutHit, ClGetHit *)
  2-4: cbn [evs_spec]; known; destruct (st_get _ _ _ _); congruence.
  - (* ClInsDropped *) cbn [evs_spec]. known. right. auto using buf_send_full.
  - (* PrNew *) apply pol_proc_ev. eapply pol_add_ev. eassumption.
  - (* PrUpdate *) apply pol_proc_ev, sl_update_ev.
  - (* PrDelete *) apply pol_proc_ev, pol_remove_ev.
  - (* PrAdmit *) constructor; [right; reflexivity|constructor].
  - (* PrClearAck *) right. eauto.
  - (* PrTickExpired *) apply pol_proc_ev, pol_remove_ev.
Qed.

(* away from the last step of a clear, which resets the counters *)
Lemma step_events c st l st' o :
  c_metrics c = true -> (forall sig, s_pc st <> PClearAfterStore sig) -> cstep c st l = StepOk st' o ->
  exists evs, s_mets st' = m_adds (s_mets st) evs /\ evs_spec c st l o evs.
Proof. intros Hm NC H. destruct (step_metrics c st l st' o Hm H) as [X|(sig & h & _ & X & _)]; [exact X|destruct (NC sig X)]. Qed.

Lemma MW_step c st l st' o : c_metrics c = true -> MW st -> cstep c st l = StepOk st' o -> MW st'.
Proof.
  intros Hm W H.
  destruct (step_metrics c st l st' o Hm H) as [(evs & E & _)|(sig & h & _ & _ & E)]; unfold MW; rewrite E;
    [rewrite length_m_adds; exact W|reflexivity].
Qed.

Lemma MW_init c mc t now : MW (cinit c mc t now).
Proof. reflexivity. Qed.

Definition lookup_started (st : cstate) (l : label) : bool :=
  match l with LOp _ op => is_lookup op && negb (s_closed st) | _ => false end.

Definition lookup_finishes (st : cstate) (l : label) : bool :=
  match l with LClient a => match client_of st a with KGetStore _ _ _ => true | _ => false end | _ => false end.

Definition insert_sends (st : cstate) (l : label) : bool :=
  match l with LClient a => match client_of st a with KInsSend _ _ => true | _ => false end | _ => false end.

Lemma step_counter_same c st l st' o :
  c_metrics c = true -> (forall sig, s_pc st <> PClearAfterStore sig) -> cstep c st l = StepOk st' o ->
  forall t,
  match t with
  | MKeepGets | MDropGets => lookup_started st l = false
  | MHit | MMiss => lookup_finishes st l = false
  | MDropSets => insert_sends st l = false
  | _ => False
  end -> m_get (s_mets st') t = m_get (s_mets st) t.
Proof.
  intros Hm NC H t. destruct (step_events c st l st' o Hm NC H) as (evs & -> & S). clear H. intros T. apply m_get_adds_other.
  destruct l as [a op|a|h|h|dt|]; cbn [evs_spec lookup_started lookup_finishes insert_sends] in S, T;
    try (subst evs; constructor).
  - destruct (is_lookup op && negb (s_closed st)); [|subst evs; constructor].
    destruct S as [->|[(n & ->)|(n & ->)]]; repeat constructor; destruct t; easy.
  - destruct (client_of st a); try (subst evs; solve [constructor]).
    + destruct S as [(-> & _)|(-> & _)]; repeat constructor; destruct t; easy.
    + subst evs. destruct (st_get _ _ _ _); repeat constructor; destruct t; easy.
  - eapply Forall_impl; [|exact S]. intros [t0 d] [P|[= -> ->]] <-; [destruct t0|]; easy.
Qed.

Lemma step_ring c st l st' o :
  cstep c st l = StepOk st' o -> lookup_started st l = false -> s_ring st' = s_ring st.
Proof.
  intros H. step_cases H; try reflexivity.
  (* OpGet, OpGetMut *)
  all: cbn [lookup_started is_lookup andb]; destruct (s_closed st); [congruence|discriminate].
Qed.

Lemma step_pqueue c st l st' o :
  cstep c st l = StepOk st' o -> lookup_started st l = false ->
  s_pqueue st' = s_pqueue st \/ (exists h b, l = LWorker h /\ s_pqueue st = b :: s_pqueue st').
Proof.
  intros H. step_cases H; auto.
  (* OpGet, OpGetMut *)
  1-2: cbn [lookup_started is_lookup andb]; destruct (s_closed st); [congruence|discriminate].
  (* WkBatch *)
  right. eauto.
Qed.

(* [gets_accounted] (CacheLocal.v) is kept + dropped + pending *)
Lemma ring_push_accounted c st k :
  c_metrics c = true -> MW st -> s_pol_closed st = false ->
  wrap64 (gets_accounted (ring_push c st k)) = wrap64 (gets_accounted st + 1).
Proof.
  intros Hm W PCl. unfold gets_accounted.
  destruct (ring_push_cases c st k) as [(A & E)|[(A & B & E)|[(A & B & R & E)|(A & B & R & E)]]];
    rewrite E, ?emit_eq; clear E; unfold emit_mets; rewrite ?Hm; sproj.
  - (* pending *) rewrite app_length. cbn [length]. f_equal. lia.
  - (* policy closed *) congruence.
  - (* kept *) cbn [m_adds fold_left]. rewrite m_get_add_same by exact W.
    rewrite m_get_add_other by discriminate. rewrite app_length. cbn [length].
    rewrite <- N.add_assoc, wrap64_add_l. f_equal. lia.
  - (* dropped *) cbn [m_adds fold_left]. rewrite m_get_add_same by exact W.
    rewrite m_get_add_other by discriminate. rewrite app_length. cbn [length].
    rewrite (N.add_comm (m_get (s_mets st) MKeepGets)), <- N.add_assoc, wrap64_add_l. f_equal. lia.
Qed.

(* C15: every flushed batch is accounted exactly once.  Taking the counters modulo 2^64 (they are
   wrapping u64s): kept + dropped + pending grows by exactly one per lookup started on an open cache
   while the policy is open, and by nothing on any other step of any actor (metrics reset by clear
   aside). *)
Theorem gets_conservation c st l st' o :
  c_metrics c = true -> MW st -> s_pol_closed st = false -> (forall sig, s_pc st <> PClearAfterStore sig) ->
  cstep c st l = StepOk st' o ->
  wrap64 (gets_accounted st') = wrap64 (gets_accounted st + (if lookup_started st l then 1 else 0)).
Proof.
  intros Hm W PCl NC H. destruct (lookup_started st l) eqn:LS.
  - revert LS. step_cases H; cbn [lookup_started is_lookup andb]; try discriminate; intros LS.
    + (* OpClosed *) destruct (s_closed st); [rewrite andb_false_r in LS; discriminate|congruence].
    + (* OpGet *) exact (ring_push_accounted c st k Hm W PCl).
    + (* OpGetMut *) exact (ring_push_accounted c st k Hm W PCl).
  - rewrite N.add_0_r. unfold gets_accounted.
    rewrite (step_ring c st l st' o H LS), !(step_counter_same c st l st' o Hm NC H) by exact LS. reflexivity.
Qed.

(* C15: kept batches reach the estimator, in order ... *)
Theorem worker_applies_batch c st h st' o b r :
  h_arm h = Some ArmItem -> s_pqueue st = b :: r -> worker_step c st h = StepOk st' o ->
  tl_increments (s_tlfu st) b = Some (s_tlfu st') /\ s_pqueue st' = r.
Proof.
  intros A Q H. apply worker_step_rule in H. destruct H; try congruence; sproj.
  (* WkBatch *) split; congruence.
Qed.

(* ... and nothing else feeds or wipes it, but for clear() *)
Theorem step_tlfu c st l st' o :
  cstep c st l = StepOk st' o ->
  s_tlfu st' = s_tlfu st \/
  (exists h b, l = LWorker h /\ s_pqueue st = b :: s_pqueue st' /\ tl_increments (s_tlfu st) b = Some (s_tlfu st')) \/
  (exists h sig, l = LProc h /\ s_pc st = PClearAfterDrain sig /\ s_tlfu st' = tl_clear (s_tlfu st)).
Proof.
  intros H. step_cases H; auto.
  - (* PrClearPolicy *) right. right. eauto.
  - (* WkBatch *) right. left. eauto.
Qed.

(* C15: once the worker has processed a kept batch, the estimate of every key reflects its lookups in
   that batch (saturating at 16), unless the aging window ended inside the batch *)
Theorem kept_batch_is_reflected c st h st' o b r :
  tl_wf (s_tlfu st) -> Forall (fun g => g < two64) b ->
  tl_w (s_tlfu st) + N.of_nat (length b) < tl_samples (s_tlfu st) ->
  h_arm h = Some ArmItem -> s_pqueue st = b :: r -> worker_step c st h = StepOk st' o ->
  forall k, k < two64 -> exists e, tl_estimate (s_tlfu st') k = Some e /\ N.min 16 (count b k) <= e /\ e <= 16.
Proof.
  intros TW Fb Hw A Q H k Hk. destruct (worker_applies_batch c st h st' o b r A Q H) as (E & _).
  exact (estimate_never_undercounts (s_tlfu st) b (s_tlfu st') TW Fb Hw E k Hk).
Qed.

(* C17: lookups are counted as exactly one hit or one miss, when their store access happens *)
Theorem hit_miss_conservation c st l st' o :
  c_metrics c = true -> MW st -> (forall sig, s_pc st <> PClearAfterStore sig) ->
  cstep c st l = StepOk st' o ->
  wrap64 (m_get (s_mets st') MHit + m_get (s_mets st') MMiss) =
  wrap64 (m_get (s_mets st) MHit + m_get (s_mets st) MMiss + (if lookup_finishes st l then 1 else 0)).
Proof.
  intros Hm W NC H. destruct (lookup_finishes st l) eqn:LF.
  - destruct (step_events c st l st' o Hm NC H) as (evs & -> & S).
    destruct l as [a op|a|h|h|dt|]; cbn [lookup_finishes] in LF; try discriminate LF. cbn [evs_spec] in S.
    destruct (client_of st a); try discriminate LF. subst evs. cbn [m_adds fold_left].
    destruct (st_get _ _ _ _).
    + rewrite m_get_add_same by exact W. rewrite m_get_add_other by discriminate. rewrite wrap64_add_l. f_equal. lia.
    + rewrite m_get_add_same by exact W. rewrite m_get_add_other by discriminate. rewrite wrap64_add_r. f_equal. lia.
  - rewrite N.add_0_r, !(step_counter_same c st l st' o Hm NC H) by exact LF. reflexivity.
Qed.

(* C17: sets_dropped grows by one exactly when an insert of a non-resident key returns false because
   the insert buffer refused its New item; no other step of any actor touches it *)
Theorem drop_sets_exact c st l st' o :
  c_metrics c = true -> MW st -> (forall sig, s_pc st <> PClearAfterStore sig) ->
  cstep c st l = StepOk st' o ->
  (m_get (s_mets st') MDropSets = wrap64 (m_get (s_mets st) MDropSets + 1) /\
     exists a it k, l = LClient a /\ client_of st a = KInsSend it k /\ is_update it = false /\
                    buf_send c st it = None /\ o_res o = RBool false) \/
  (m_get (s_mets st') MDropSets = m_get (s_mets st) MDropSets /\
     forall a it k, l = LClient a -> client_of st a = KInsSend it k -> o_res o = RBool true).
Proof.
  intros Hm W NC H. destruct (insert_sends st l) eqn:IS.
  - destruct (step_events c st l st' o Hm NC H) as (evs & -> & S).
    destruct l as [|a| | | |]; try discriminate IS. cbn [insert_sends evs_spec] in IS, S.
    destruct (client_of st a) eqn:CA; try discriminate IS.
    destruct S as [(-> & R)|(-> & R & IU & BS)].
    + right. split; [reflexivity|]. intros; exact R.
    + left. cbn [m_adds fold_left]. rewrite m_get_add_same by exact W. split; [reflexivity|]. exists a, it, k. auto.
  - right. split; [exact (step_counter_same c st l st' o Hm NC H MDropSets IS)|].
    intros a it k -> CA. cbn [insert_sends] in IS. rewrite CA in IS. discriminate IS.
Qed.

(* C17: the last step of clear() (the store is empty by then) restarts every counter from zero,
   resets the life-expectancy histogram and releases the caller *)
Theorem clear_resets_metrics c st h sig :
  c_metrics c = true -> s_pc st = PClearAfterStore sig ->
  exists st', proc_step c st h = StepOk st' (mk_out PtProcLoop [] RNone) /\
    s_mets st' = metrics_zero /\ s_hist st' = hist_clear /\ mem_N sig (s_done st') = true /\
    (forall t, m_get (s_mets st') t = 0).
Proof.
  intros Hm PC. unfold proc_step. rewrite PC, Hm. eexists. split; [reflexivity|]. sproj.
  split; [reflexivity|]. split; [reflexivity|]. split; [cbn [mem_N]; rewrite N.eqb_refl; reflexivity|].
  intros t. destruct t; reflexivity.
Qed.

Fixpoint sumZ (l : list Z) : Z := match l with [] => 0%Z | x :: r => (x + sumZ r)%Z end.

Definition hist_ok (h : hist) : Prop := length (h_buckets h) = HIST_BUCKETS /\ h_count h = sumZ (h_buckets h).

Lemma bucket_from_le val : forall fuel i, (bucket_from val i fuel <= i + fuel)%nat.
Proof.
  induction fuel as [|f IH]; intros i; cbn [bucket_from]; [lia|].
  destruct (val <? 2 ^ Z.of_nat (S i))%Z; [lia|]. specialize (IH (S i)). lia.
Qed.

Lemma bucket_idx_lt val : (bucket_idx val < HIST_BUCKETS)%nat.
Proof. unfold bucket_idx, HIST_BUCKETS. pose proof (bucket_from_le val HIST_BOUNDS 0). lia. Qed.

Lemma sumZ_list_set l : forall i, (i < length l)%nat -> sumZ (list_set l i (nth i l 0%Z + 1)%Z) = (sumZ l + 1)%Z.
Proof.
  induction l as [|x l IH]; intros [|i] H; cbn [length] in H; try lia; cbn [list_set nth sumZ].
  - lia.
  - rewrite IH by lia. lia.
Qed.

Lemma sumZ_app a b : sumZ (a ++ b) = (sumZ a + sumZ b)%Z.
Proof. induction a as [|x a IH]; cbn [sumZ app]; lia. Qed.

Lemma hist_new_ok : hist_ok hist_new.
Proof. split; reflexivity. Qed.
Lemma hist_clear_ok : hist_ok hist_clear.
Proof. split; reflexivity. Qed.

(* C17, the life-expectancy histogram.  One sample: count and exactly one bucket grow by one; sum
   grows by the value *)
Theorem hist_update_spec h v : hist_ok h ->
  hist_ok (hist_update h v) /\ h_count (hist_update h v) = (h_count h + 1)%Z /\ h_sum (hist_update h v) = (h_sum h + v)%Z /\
  sumZ (h_buckets (hist_update h v)) = (sumZ (h_buckets h) + 1)%Z.
Proof.
  intros (L & C). pose proof (bucket_idx_lt v) as B. unfold hist_update, hist_ok. cbn [h_buckets h_count h_sum].
  rewrite length_list_set. rewrite sumZ_list_set by (rewrite L; exact B). repeat split; try assumption; lia.
Qed.

(* [prepare_evict], which the processor runs for every on_evict callback (a victim, a swept entry),
   adds exactly one sample for a tracked key and untracks it; an untracked key adds nothing *)
Theorem eviction_samples_tracked_key c st k ts :
  c_metrics c = true -> aget k (s_start st) = Some ts -> ts <= s_now st -> hist_ok (s_hist st) ->
  exists st1, prepare_evict c st k = Some st1 /\
    h_count (s_hist st1) = (h_count (s_hist st) + 1)%Z /\ hist_ok (s_hist st1) /\
    h_sum (s_hist st1) = (h_sum (s_hist st) + Z.of_N ((s_now st - ts) / 1000000000))%Z /\
    aget k (s_start st1) = None.
Proof.
  intros Hm G Hle HO. unfold prepare_evict. rewrite Hm, G. destruct (s_now st <? ts) eqn:X; [lia|].
  eexists. split; [reflexivity|]. sproj.
  destruct (hist_update_spec (s_hist st) (Z.of_N ((s_now st - ts) / 1000000000)) HO) as (A & B & C & _).
  split; [exact B|]. split; [exact A|]. split; [exact C|apply aget_adel_same].
Qed.

Theorem eviction_of_untracked_key c st k : aget k (s_start st) = None -> prepare_evict c st k = Some st.
Proof. intros G. unfold prepare_evict. rewrite G. destruct (c_metrics c); reflexivity. Qed.

(* [track_admission], which the processor runs when an admitted key enters the store, tracks the
   key from "now" (as long as the table has not outgrown NUM_TO_KEEP: pruning is not modelled) *)
Theorem admission_tracks_key c st k :
  c_metrics c = true -> N.of_nat (length (s_start st)) <= Consts.NUM_TO_KEEP ->
  exists st1, track_admission c st k = Some st1 /\ aget k (s_start st1) = Some (s_now st) /\ s_hist st1 = s_hist st.
Proof.
  intros Hm L. unfold track_admission. rewrite Hm. destruct (Consts.NUM_TO_KEEP <? N.of_nat (length (s_start st))) eqn:X; [lia|].
  eexists. split; [reflexivity|]. split; [apply aget_aset_same|reflexivity].
Qed.

Lemma prepare_evict_hist_ok c st k st1 : hist_ok (s_hist st) -> prepare_evict c st k = Some st1 -> hist_ok (s_hist st1).
Proof.
  intros HO. unfold prepare_evict. destruct (c_metrics c); [|intros H; inversion H; subst; assumption].
  destruct (aget k (s_start st)); [|intros H; inversion H; subst; assumption].
  destruct (s_now st <? n); [discriminate|]. intros H; inversion H; subst. apply hist_update_spec. assumption.
Qed.

Lemma prepare_evicts_hist_ok c cbs : forall st st1, hist_ok (s_hist st) -> prepare_evicts c st cbs = Some st1 -> hist_ok (s_hist st1).
Proof.
  induction cbs as [|cb cbs IH]; intros st st1 HO; cbn [prepare_evicts]; [intros H; inversion H; subst; assumption|].
  destruct cb; try (apply IH; assumption).
  destruct (prepare_evict c st k) as [st0|] eqn:E; [|discriminate]. apply IH. eapply prepare_evict_hist_ok; eassumption.
Qed.

Theorem hist_ok_step c st l st' o : hist_ok (s_hist st) -> cstep c st l = StepOk st' o -> hist_ok (s_hist st').
Proof.
  intros HO H. step_cases H; try exact HO.
  (* TkDone, PrVictimLast, PrVictimNext *)
  all: try match goal with PE : prepare_evicts _ _ _ = Some _ |- _ =>
             apply prepare_evicts_hist_ok in PE; [exact PE|exact HO] end.
  (* PrClearAck *)
  destruct (c_metrics c); [apply hist_clear_ok|exact HO].
Qed.
