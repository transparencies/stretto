(* CacheGlobalProgress.v — C20, no reachable deadlock: in every reachable state of either flavour
   with a client operation in flight, somebody can move — that client, the processor or the policy
   worker. *)
From StrettoModel Require Import TinyLFUProofs StoreProofs Cache CacheNoPanic CacheCloseAsync CacheNoDeadlock.
Open Scope N_scope.

Lemma client_can_step c st a :
  store_time_ok (s_now st) (s_store st) ->
  match client_of st a with
  | KIdle | KRemSend _ _ | KWaitBlock _ | KClearBlock _ _ | KCloseStopOffered | KPolCloseStopOffered => True
  | _ => exists st' o, continue_client c st a = StepOk st' o
  end.
Proof.
  intros ST. unfold continue_client. destruct (client_of st a); try exact I; cbn [fresh_id].
  - (* KInsSend *) destruct (buf_send c st it); [|destruct (is_update it)]; eauto.
  - (* KGetStore *) destruct (st_get _ _ _ _) as [e|] eqn:G; [destruct write; [|destruct (t_get_ttl _ _) eqn:T]|]; eauto.
    (* Time::get_ttl does not panic: the entry was stored at or before "now" *)
    destruct (stored_ttl _ _ _ _ ST (st_get_expiration _ _ _ _ _ G) T).
  - (* KWaitStart *) destruct (buf_send _ _ _); eauto.
  - (* KClearStart *) destruct (s_pc st); eauto.
  - (* KWaitAfterSend *) destruct (s_closed st); eauto.
  - (* KCloseAfterFlag *) destruct (s_pc st); eauto.
  - (* KCloseBeforeStop *) destruct (s_pc st); try destruct (_ <? _); eauto.
  - (* KCloseStopTaken *) eauto.
  - (* KCloseBeforePolicy *) destruct (s_pol_closed st); eauto.
  - (* KPolCloseBeforeStop *) destruct (s_wpc st); [destruct (_ <? _)|]; eauto.
  - (* KPolCloseStopTaken *) eauto.
  - (* KPolCloseAfterStop *) eauto.
Qed.

Theorem no_reachable_deadlock c mc t now st a :
  tl_wf t -> 0 < c_buf_cap c ->
  reach_u64 c (cinit c mc t now) st ->
  N.of_nat (length (s_start st)) <= Consts.NUM_TO_KEEP ->
  client_of st a <> KIdle ->
  (exists st' o, cstep c st (LClient a) = StepOk st' o) \/
  (exists h st' o, cstep c st (LProc h) = StepOk st' o) \/
  (exists h st' o, cstep c st (LWorker h) = StepOk st' o).
Proof.
  intros TW CAP RU LS NI. pose proof (reach_u64_reach _ _ _ RU) as R.
  destruct (reachable_NP c mc t now st TW RU) as ((_ & ST & _) & _).
  pose proof (blocked_call_has_a_moving_processor c mc t now st a CAP R LS) as BC.
  generalize (client_can_step c st a ST).
  destruct (client_of st a) eqn:K; try (intros X; left; exact X); intros _.
  - (* KIdle *) congruence.
  - (* KRemSend *) apply or_assoc; left; apply BC. right. right. eauto.
  - (* KWaitBlock *) apply or_assoc; left; apply BC. left. eauto.
  - (* KClearBlock *) apply or_assoc; left; apply BC. right. left. eauto.
  - (* KCloseStopOffered: unreachable in the async flavour *)
    right. left. destruct (c_async c) eqn:AS.
    + destruct (proj1 (async_close_never_waits c mc t now st AS R a) K).
    + exact (proj1 (blocked_close_has_a_moving_partner c mc t now st a AS R LS) K).
  - (* KPolCloseStopOffered: likewise *)
    right. right. destruct (c_async c) eqn:AS.
    + destruct (proj2 (async_close_never_waits c mc t now st AS R a) K).
    + exact (proj2 (blocked_close_has_a_moving_partner c mc t now st a AS R LS) K).
Qed.

(* non-vacuity: a reachable state meeting the hypotheses, a client blocked in wait() behind an insert
   the processor has not taken yet *)
Example no_reachable_deadlock_nonvacuous :
  let c := {| c_ignore_internal := true; c_item_size := 56; c_buf_cap := 4; c_buffer_items := 0; c_metrics := true;
              c_validator := fun _ _ => true; c_coster := fun _ => 0%Z; c_async := false |} in
  exists t st,
    tl_new 3 [1; 2; 3; 4] 29 7 = Some t /\ tl_wf t /\ 0 < c_buf_cap c /\
    reach_u64 c (cinit c 100 t 1000) st /\
    N.of_nat (length (s_start st)) <= Consts.NUM_TO_KEEP /\
    client_of st 0 = KWaitBlock 0 /\ s_pc st = PIdle /\ length (s_buf st) = 2%nat /\
    continue_client c st 0 = StepBlocked.
Proof.
  intros c.
  destruct (tl_new_spec 3 [1; 2; 3; 4] 29 7) as (t & E & W & _); [lia|reflexivity|vm_compute; discriminate|vm_compute; discriminate|].
  (* the run never consults the admission filter, so [t] can stay abstract while it is evaluated *)
  exists t. eexists. split; [exact E|]. split; [exact W|]. split; [reflexivity|].
  split.
  - eapply crun_reach_u64
      with (ls := [LOp 0 (OInsert 1 0 100 1 0 false); LClient 0; LOp 0 OWait; LClient 0; LClient 0]);
      [repeat constructor|lazy; reflexivity].
  - repeat split; vm_compute; congruence || reflexivity.
Qed.
