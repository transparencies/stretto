(* CacheMap.v — property C04: below capacity the cache is an exact map with TTLs.  The base is
   key_step (CacheValues.v is built on it as well): a step of any actor leaves the entry under a key
   as it is, writes it (write_cause) or takes it away (leave_cause). *)
From StrettoModel Require Import BaseProofs PolicyProofs StoreProofs Cache CacheSteps CacheAgree.
Open Scope N_scope.

(* StoreProofs.store_wr has these cases without the key and the value written, which key_step needs *)
Lemma try_update_map vld s k v c t s' r :
  st_try_update vld s k v c t = (s', r) ->
  st_map s' = st_map s \/ exists e', st_map s' = aset k e' (st_map s) /\ e_val e' = v.
Proof.
  unfold st_try_update. destruct (aget k (st_map s)) as [e|]; [|intros [= <- _]; auto].
  destruct (negb (conflict_ok c e)); [intros [= <- _]; auto|].
  destruct (negb (vld (e_val e) v)); intros [= <- _]; [auto|]. right. eexists. split; reflexivity.
Qed.

Lemma try_insert_map vld s k v c t :
  st_map (st_try_insert vld s k v c t) = st_map s \/
  exists e', st_map (st_try_insert vld s k v c t) = aset k e' (st_map s) /\ e_val e' = v.
Proof.
  unfold st_try_insert. destruct (aget k (st_map s)) as [e|]; [|right; eexists; split; reflexivity].
  destruct (negb (conflict_ok c e)); [auto|].
  destruct (negb (vld (e_val e) v)); [auto|]. right. eexists. split; reflexivity.
Qed.

Lemma write_map s k v :
  st_map (st_write s k v) = st_map s \/ exists e', st_map (st_write s k v) = aset k e' (st_map s) /\ e_val e' = v.
Proof. unfold st_write. destruct (aget k (st_map s)) as [e|]; [right; eexists; split; reflexivity|auto]. Qed.

Lemma try_remove_map s k c s' prev :
  st_try_remove s k c = (s', prev) -> st_map s' = st_map s \/ st_map s' = adel k (st_map s).
Proof.
  unfold st_try_remove. destruct (aget k (st_map s)) as [e|]; [|intros [= <- _]; auto].
  destruct (negb (conflict_ok c e)); intros [= <- _]; auto.
Qed.

Lemma try_update_accepts vld s k v c t e :
  aget k (st_map s) = Some e -> conflict_ok c e = true -> vld (e_val e) v = true ->
  exists s', st_try_update vld s k v c t = (s', UUpdate (e_val e)).
Proof. intros G C V. unfold st_try_update. rewrite G, C, V. eexists. reflexivity. Qed.

Lemma try_remove_takes s k c e :
  aget k (st_map s) = Some e -> conflict_ok c e = true ->
  exists s', st_try_remove s k c = (s', Some e) /\ st_map s' = adel k (st_map s).
Proof. intros G C. unfold st_try_remove. rewrite G, C. eexists. split; reflexivity. Qed.

(* C04 (1): the ways a resident entry leaves the store (entry_leaves_only_by) *)
Inductive leave_cause (st : cstate) (l : label) (k : N) : Prop :=
| LcRemove a cf : l = LOp a (ORemove k cf) -> leave_cause st l k
| LcDelete h cf : l = LProc h -> s_pc st = PDelAfterPolicy k cf -> leave_cause st l k
| LcVictim h vc rest : l = LProc h -> s_pc st = PNewVictim (k, vc) rest -> leave_cause st l k
| LcSweep h cf cost rest acc : l = LProc h -> s_pc st = PTickAfterPolicy k cf cost rest acc -> leave_cause st l k
| LcClear h sig : l = LProc h -> s_pc st = PClearAfterPolicy sig -> leave_cause st l k.

(* an insert of (k, v) that finds k resident, the write half of get_mut, the processor storing an
   admitted New item *)
Inductive write_cause (st : cstate) (l : label) (k v : N) : Prop :=
| WcInsert a cf cost ttl only : l = LOp a (OInsert k cf v cost ttl only) -> write_cause st l k v
| WcGetMut a cf : l = LClient a -> client_of st a = KGetStore k cf (Some v) -> write_cause st l k v
| WcAdmit h cf exp cost vs : l = LProc h -> s_pc st = PNewAfterAdd k cf v exp cost vs true -> write_cause st l k v.

Inductive key_change (st : cstate) (l : label) (k : N) (old new : option entry) : Prop :=
| KcSame : new = old -> key_change st l k old new
| KcWrite e' : new = Some e' -> write_cause st l k (e_val e') -> key_change st l k old new
| KcLeave : new = None -> leave_cause st l k -> key_change st l k old new.

Lemma key_written st l k0 v m m' k :
  m' = m \/ (exists e', m' = aset k0 e' m /\ e_val e' = v) -> write_cause st l k0 v ->
  key_change st l k (aget k m) (aget k m').
Proof.
  intros [->|(e' & -> & <-)] C; [apply KcSame; reflexivity|].
  destruct (N.eq_dec k k0) as [->|Hne]; [eapply KcWrite; [apply aget_aset_same|exact C]|apply KcSame, aget_aset_other, Hne].
Qed.

Lemma key_left st l k0 m m' k :
  m' = m \/ m' = adel k0 m -> leave_cause st l k0 -> key_change st l k (aget k m) (aget k m').
Proof.
  intros [->| ->] C; [apply KcSame; reflexivity|].
  destruct (N.eq_dec k k0) as [->|Hne]; [apply KcLeave; [apply aget_adel_same|exact C]|apply KcSame, aget_adel_other, Hne].
Qed.

(* C04 (1) and C02: what one step does to the entry under one key *)
Theorem key_step c st l st' o k :
  cstep c st l = StepOk st' o -> key_change st l k (aget k (st_map (s_store st))) (aget k (st_map (s_store st'))).
Proof.
  (* the rest, PrTickIdle and PrTickDue among them (they touch the expiry index only), leave the map alone *)
  intros H. step_cases H; try (apply KcSame; reflexivity).
  (* OpRemove, PrVictimLast, PrVictimNext, PrDeleted, PrTickRemoved *)
  all: try (eapply key_left; [eapply try_remove_map; eassumption|eauto using leave_cause]).
  (* OpInsUpdate, ClGetMutHit, PrAdmit, PrClearStore *)
  - eapply key_written; [eapply try_update_map; eassumption|eauto using write_cause].
  - eapply key_written; [apply write_map|eauto using write_cause].
  - eapply key_written; [apply try_insert_map|eauto using write_cause].
  - apply KcLeave; [reflexivity|eapply LcClear; [reflexivity|eassumption]].
Qed.

Theorem entry_leaves_only_by c st l st' o k e :
  cstep c st l = StepOk st' o -> aget k (st_map (s_store st)) = Some e -> aget k (st_map (s_store st')) = None ->
  leave_cause st l k.
Proof. intros H A B. destruct (key_step _ _ _ _ _ k H) as [E|e' E _|_ C]; [congruence..|exact C]. Qed.

(* C04 (2): with room for the item there is no sampling, no victim, no refusal *)
Theorem room_means_no_victims est oracle s k cost s' v a lg m :
  (0 <= sl_room_left s cost)%Z -> pol_add est oracle s k cost = AddDone s' v a lg m -> v = None /\ lg = [].
Proof.
  intros R. destruct (pol_addP est oracle s k cost) as [Hm|p Hm Hp|Hm Hk Hr|Hm Hk Hr]; [intros [= _ <- _ <- _]; auto..|lia].
Qed.

Theorem below_capacity_new_key_is_admitted c st h k cf cost v exp r :
  s_pc st = PIdle -> h_arm h = Some ArmItem -> s_buf st = INew k cf cost v exp :: r ->
  aget k (sl_kc (s_slfu st)) = None ->
  (internal_cost c cost <= sl_max (s_slfu st))%Z -> (0 <= sl_room_left (s_slfu st) (internal_cost c cost))%Z ->
  exists st', proc_step c st h = StepOk st' (mk_out PtProcNewAfterAdd [] RNone) /\
    s_pc st' = PNewAfterAdd k cf v exp (internal_cost c cost) [] true /\
    s_slfu st' = sl_increment (s_slfu st) k (internal_cost c cost) /\
    s_store st' = s_store st /\ s_buf st' = r /\ s_start st' = s_start st /\ s_clients st' = s_clients st.
Proof.
  intros PC HA B G M R. unfold proc_step. rewrite PC, HA, B. cbn [proc_handle_item]. sproj.
  rewrite (room_admits_without_eviction _ _ _ _ _ M G R). eexists. split; [reflexivity|]. rewrite emit_eq. repeat split; reflexivity.
Qed.

Lemma track_admission_room c st k :
  N.of_nat (length (s_start st)) <= Consts.NUM_TO_KEEP ->
  track_admission c st k = Some (upd_start st (if c_metrics c then aset k (s_now st) (s_start st) else s_start st)).
Proof.
  intros L. unfold track_admission. destruct (c_metrics c); [|destruct st; reflexivity].
  destruct (N.ltb_spec Consts.NUM_TO_KEEP (N.of_nat (length (s_start st)))); [lia|reflexivity].
Qed.

Theorem admitted_key_becomes_resident c st h k cf v exp cost vs :
  s_pc st = PNewAfterAdd k cf v exp cost vs true -> aget k (st_map (s_store st)) = None ->
  N.of_nat (length (s_start st)) <= Consts.NUM_TO_KEEP ->
  exists st', proc_step c st h = StepOk st' (mk_out PtProcNewAfterStore [] RNone) /\
    aget k (st_map (s_store st')) = Some {| e_conflict := cf; e_val := v; e_exp := exp |} /\
    (forall k', k' <> k -> aget k' (st_map (s_store st')) = aget k' (st_map (s_store st))) /\
    s_slfu st' = s_slfu st /\ s_pc st' = PNewAfterStore vs /\ s_buf st' = s_buf st /\ s_clients st' = s_clients st.
Proof.
  intros PC G L. unfold proc_step. rewrite PC, emit_eq, track_admission_room by exact L.
  eexists. split; [reflexivity|]. sproj. unfold st_try_insert. rewrite G. cbn [st_map].
  split; [apply aget_aset_same|]. split; [intros k' Hne; apply aget_aset_other, Hne|repeat split; reflexivity].
Qed.

(* C04 (3): the sweeper removes a key only if, when it looked, the entry had a TTL that had elapsed *)
Theorem sweep_takes_only_expired c st h k cf rest acc st' o cost rest' acc' :
  s_pc st = PTickKey k cf rest acc -> proc_step c st h = StepOk st' o -> s_pc st' = PTickAfterPolicy k cf cost rest' acc' ->
  exists t, st_expiration (s_store st) k = Some t /\ t_is_zero t = false /\ t_is_expired (s_now st) t = true.
Proof.
  intros PC H PC'. apply proc_step_rule in H. destruct H; try congruence.
  - (* PrTickExpired *)
    match goal with X : _ && _ = true |- _ => apply andb_true_iff in X; destruct X as (X1 & X2); apply negb_true_iff in X1 end.
    exists t. split; [congruence|auto].
  - (* PrTickSkip *)
    match goal with T : tick_rule _ _ _ _ _ _ _ |- _ => destruct T end; discriminate PC'.
Qed.

Definition item_hint : hint := {| h_arm := Some ArmItem; h_oracle := []; h_tick_key := None |}.

(* runs are built from the front: Q speaks of the outputs of the whole run, those of the steps
   already taken put in front *)
Lemma run_step c st l ls st1 o (Q : cstate -> list out -> Prop) :
  cstep c st l = StepOk st1 o -> (exists st' os, crun c st1 ls = Some (st', os) /\ Q st' (o :: os)) ->
  exists st' os, crun c st (l :: ls) = Some (st', os) /\ Q st' os.
Proof. intros E (st' & os & R & HQ). exists st', (o :: os). cbn [crun]. rewrite E, R. auto. Qed.

Lemma idle_has_room c st : s_pc st = PIdle -> s_buf st = [] -> 0 < c_buf_cap c -> buf_room c st.
Proof. intros PC B Cap. unfold buf_room. rewrite PC, B. split; [discriminate|exact Cap]. Qed.

Lemma client_sends_item c st a it k :
  client_of st a = KInsSend it k -> buf_room c st ->
  cstep c st (LClient a) = StepOk (set_client (upd_buf st (s_buf st ++ [it])) a KIdle) (mk_out PtFinish [] (RBool true)).
Proof. intros K R. cbn [cstep]. unfold continue_client. rewrite K, (buf_room_send _ _ _ R). reflexivity. Qed.

Lemma client_sends_delete c st a k cf :
  client_of st a = KRemSend k cf -> buf_room c st ->
  cstep c st (LClient a) = StepOk (set_client (upd_buf st (s_buf st ++ [IDelete k cf])) a KIdle) (mk_out PtFinish [] (RUnit true)).
Proof. intros K R. cbn [cstep]. unfold continue_client. rewrite K, (buf_room_send _ _ _ R). reflexivity. Qed.

(* on s_clients, which is all that the theorems above say about the clients after a processor step *)
Lemma all_idle st st' a k b :
  s_clients st' = aset a KIdle (aset a k (s_clients st)) -> client_of st b = KIdle -> client_of st' b = KIdle.
Proof.
  unfold client_of. intros -> Q. destruct (N.eq_dec b a) as [->|Hne]; [rewrite aget_aset_same; reflexivity|].
  rewrite !aget_aset_other by exact Hne. exact Q.
Qed.

(* C04 (4), end to end from a quiescent state.  Insert of a key neither resident nor charged, with
   room for it: only that key changes, no callback fires, the cache is quiescent again *)
Theorem insert_new_key_end_to_end c st a k cf v cost ttl :
  s_closed st = false -> quiescent st -> 0 < c_buf_cap c ->
  aget k (st_map (s_store st)) = None -> aget k (sl_kc (s_slfu st)) = None ->
  N.of_nat (length (s_start st)) <= Consts.NUM_TO_KEEP ->
  let cost' := internal_cost c (cost + (if (cost =? 0)%Z then c_coster c v else 0))%Z in
  (cost' <= sl_max (s_slfu st))%Z -> (0 <= sl_room_left (s_slfu st) cost')%Z ->
  exists st' os,
    crun c st [LOp a (OInsert k cf v cost ttl false); LClient a; LProc item_hint; LProc no_hint; LProc no_hint] = Some (st', os) /\
    map o_res os = [RNone; RBool true; RNone; RNone; RNone] /\ flat_map o_cbs os = [] /\
    s_buf st' = [] /\ s_pc st' = PIdle /\ (forall b, client_of st' b = KIdle) /\
    aget k (st_map (s_store st')) = Some {| e_conflict := cf; e_val := v; e_exp := {| t_created := s_now st; t_d := ttl |} |} /\
    (forall k', k' <> k -> aget k' (st_map (s_store st')) = aget k' (st_map (s_store st))) /\
    aget k (sl_kc (s_slfu st')) = Some cost' /\
    (forall k', k' <> k -> aget k' (sl_kc (s_slfu st')) = aget k' (sl_kc (s_slfu st))) /\
    sl_used (s_slfu st') = (sl_used (s_slfu st) + cost')%Z.
Proof.
  intros Hc (QB & QP & QC) Cap Ga Gc NK cost' M R.
  eapply run_step.
  { cbn [cstep]. rewrite (QC a). cbn [start_op]. rewrite Hc, (update_absent_is_noop _ _ _ _ _ _ Ga). reflexivity. }
  eapply run_step.
  { eapply client_sends_item; [apply client_of_set_same|apply idle_has_room; assumption]. }
  sproj. rewrite QB. cbn [app]. set (st2 := set_client _ a KIdle).
  destruct (below_capacity_new_key_is_admitted c st2 item_hint k cf _ v _ [] QP eq_refl eq_refl Gc M R)
    as (st3 & S3 & PC3 & SL3 & ST3 & B3 & SS3 & CL3).
  subst st2. sproj. eapply run_step; [exact S3|].
  destruct (admitted_key_becomes_resident c st3 no_hint _ _ _ _ _ _ PC3) as (st4 & S4 & Gk & Go & SL4 & PC4 & B4 & CL4);
    [rewrite ST3; exact Ga|rewrite SS3; exact NK|].
  rewrite ST3 in Go. rewrite B3 in B4. rewrite SL3 in SL4. rewrite CL3 in CL4.
  eapply run_step; [exact S4|].
  eapply run_step.
  { cbn [cstep]. unfold proc_step. rewrite PC4. reflexivity. }
  eexists. eexists. split; [reflexivity|]. cbn [map o_res mk_out flat_map o_cbs app]. sproj.
  rewrite B4, SL4. repeat (split; [reflexivity|]).
  split; [intros b; eapply (all_idle st _ a); [sproj; exact CL4|apply QC]|].
  split; [exact Gk|]. split; [exact Go|]. unfold sl_increment. cbn [sl_kc sl_used].
  split; [apply aget_aset_same|]. split; [intros k' Hne; apply aget_aset_other, Hne|reflexivity].
Qed.

(* re-insert of a resident key: value and deadline are replaced at once, the old value goes to
   on_exit, the policy re-charges the key *)
Theorem update_end_to_end c st a k cf v cost ttl only e p :
  s_closed st = false -> quiescent st -> 0 < c_buf_cap c ->
  aget k (st_map (s_store st)) = Some e -> conflict_ok cf e = true -> c_validator c (e_val e) v = true ->
  aget k (sl_kc (s_slfu st)) = Some p ->
  let cost' := (internal_cost c cost + (if (cost =? 0)%Z then c_coster c v else 0))%Z in
  exists st' os,
    crun c st [LOp a (OInsert k cf v cost ttl only); LClient a; LProc item_hint] = Some (st', os) /\
    map o_res os = [RNone; RBool true; RNone] /\ flat_map o_cbs os = [CbExit (e_val e)] /\
    s_buf st' = [] /\ s_pc st' = PIdle /\ (forall b, client_of st' b = KIdle) /\
    aget k (st_map (s_store st')) = Some {| e_conflict := e_conflict e; e_val := v; e_exp := {| t_created := s_now st; t_d := ttl |} |} /\
    (forall k', k' <> k -> aget k' (st_map (s_store st')) = aget k' (st_map (s_store st))) /\
    aget k (sl_kc (s_slfu st')) = Some cost' /\
    (forall k', k' <> k -> aget k' (sl_kc (s_slfu st')) = aget k' (sl_kc (s_slfu st))).
Proof.
  intros Hc (QB & QP & QC) Cap Ga Hk Hv Gc cost'.
  destruct (try_update_accepts (c_validator c) _ k v cf {| t_created := s_now st; t_d := ttl |} e Ga Hk Hv) as (sto & TU).
  destruct (update_replaces_deadline _ _ _ _ _ _ _ _ TU) as (e0 & G0 & _ & Gk & Go).
  rewrite Ga in G0. injection G0 as <-.
  eapply run_step.
  { cbn [cstep]. rewrite (QC a). cbn [start_op]. rewrite Hc, TU. reflexivity. }
  eapply run_step.
  { eapply client_sends_item; [apply client_of_set_same|apply idle_has_room; assumption]. }
  sproj. rewrite QB. cbn [app].
  eapply run_step.
  { cbn [cstep]. unfold proc_step. sproj. rewrite QP. cbn [h_arm item_hint proc_handle_item].
    unfold sl_update. sproj. rewrite Gc, emit_eq. reflexivity. }
  eexists. eexists. split; [reflexivity|]. cbn [map o_res mk_out flat_map o_cbs app fst snd]. sproj.
  repeat (split; [reflexivity|]). split; [exact QP|].
  split; [intros b; eapply all_idle; [reflexivity|apply QC]|]. cbn [sl_kc].
  split; [exact Gk|]. split; [exact Go|].
  split; [apply aget_aset_same|intros k' Hne; apply aget_aset_other, Hne].
Qed.

(* remove of a resident key: the entry leaves the store at once (on_exit), the queued Delete
   un-charges it *)
Theorem remove_end_to_end c st a k cf e p :
  s_closed st = false -> quiescent st -> 0 < c_buf_cap c ->
  aget k (st_map (s_store st)) = Some e -> conflict_ok cf e = true -> aget k (sl_kc (s_slfu st)) = Some p ->
  exists st' os,
    crun c st [LOp a (ORemove k cf); LClient a; LProc item_hint; LProc no_hint] = Some (st', os) /\
    map o_res os = [RNone; RUnit true; RNone; RNone] /\ flat_map o_cbs os = [CbExit (e_val e)] /\
    s_buf st' = [] /\ s_pc st' = PIdle /\ (forall b, client_of st' b = KIdle) /\
    aget k (st_map (s_store st')) = None /\
    (forall k', k' <> k -> aget k' (st_map (s_store st')) = aget k' (st_map (s_store st))) /\
    aget k (sl_kc (s_slfu st')) = None /\
    (forall k', k' <> k -> aget k' (sl_kc (s_slfu st')) = aget k' (sl_kc (s_slfu st))) /\
    sl_used (s_slfu st') = (sl_used (s_slfu st) - p)%Z.
Proof.
  intros Hc (QB & QP & QC) Cap Ga Hk Gc.
  destruct (try_remove_takes _ _ _ _ Ga Hk) as (sto & TR & M).
  eapply run_step.
  { cbn [cstep]. rewrite (QC a). cbn [start_op]. rewrite Hc, TR. reflexivity. }
  eapply run_step.
  { eapply client_sends_delete; [apply client_of_set_same|apply idle_has_room; assumption]. }
  sproj. rewrite QB. cbn [app].
  eapply run_step.
  { cbn [cstep]. unfold proc_step. sproj. rewrite QP. cbn [h_arm item_hint proc_handle_item].
    unfold pol_remove, sl_remove. sproj. rewrite Gc, emit_eq. reflexivity. }
  (* the queued Delete finds the key gone from the store *)
  eapply run_step.
  { cbn [cstep]. unfold proc_step, st_try_remove. sproj. rewrite M, aget_adel_same. reflexivity. }
  eexists. eexists. split; [reflexivity|]. cbn [map o_res mk_out flat_map o_cbs app exit_cb fst snd]. sproj.
  repeat (split; [reflexivity|]).
  split; [intros b; eapply all_idle; [reflexivity|apply QC]|]. rewrite M. cbn [sl_kc sl_used].
  split; [apply aget_adel_same|]. split; [intros k' Hne; apply aget_adel_other, Hne|].
  split; [apply aget_adel_same|]. split; [intros k' Hne; apply aget_adel_other, Hne|reflexivity].
Qed.

(* a lookup returns what the map holds and changes neither the store nor the charges.  The third
   hypothesis is CacheNoPanic.store_time_ok at k (true in reachable states); under it Time::get_ttl
   of a stored entry does not fail — the last conjunct — so the branch `None => RNone` is dead *)
Theorem lookup_end_to_end c st a k cf :
  s_closed st = false -> client_of st a = KIdle ->
  (forall e, aget k (st_map (s_store st)) = Some e -> t_created (e_exp e) <= s_now st) ->
  exists st' os,
    crun c st [LOp a (OGet k cf); LClient a] = Some (st', os) /\
    s_store st' = s_store st /\ s_slfu st' = s_slfu st /\ s_buf st' = s_buf st /\ client_of st' a = KIdle /\
    map o_res os =
      [RNone;
       match st_get (s_now st) (s_store st) k cf with
       | Some e => match t_get_ttl (s_now st) (e_exp e) with Some d => RGet (Some (e_val e, d)) | None => RNone end
       | None => RGet None
       end] /\
    (forall e, st_get (s_now st) (s_store st) k cf = Some e -> exists d, t_get_ttl (s_now st) (e_exp e) = Some d).
Proof.
  intros Hc CA TO.
  assert (TT : forall e, st_get (s_now st) (s_store st) k cf = Some e -> exists d, t_get_ttl (s_now st) (e_exp e) = Some d).
  { intros e G. apply get_ttl_total, TO. eapply st_get_stored, G. }
  eapply run_step.
  { cbn [cstep]. rewrite CA. cbn [start_op]. rewrite Hc, ring_push_eq. reflexivity. }
  destruct (st_get (s_now st) (s_store st) k cf) as [e|] eqn:G; [destruct (TT e eq_refl) as (d & D); rewrite D|].
  all: eapply run_step;
    [cbn [cstep]; unfold continue_client; rewrite client_of_set_same; sproj; rewrite G, ?D, !emit_eq; reflexivity|].
  all: eexists; eexists; split; [reflexivity|]; sproj; repeat split; try reflexivity; [apply client_of_set_same|exact TT].
Qed.
